(* Key tables, hex and DER (Model/Keys.v, C13): parse_keys accepts exactly the tables in which every entry stands
   under the identifier computed from its key and no identifier occurs twice; hex and SubjectPublicKeyInfo round trips. *)
From ToughV Require Import Model.Base Model.Keys Proofs.BaseP.

Lemma unhex_hexdigit d : d < 16 -> unhex (hexdigit_lo d) = Some d.
Proof.
  intro H. unfold unhex, hexdigit_lo. destruct (d <? 10) eqn:E.
  - assert ((48 <=? 48 + d) && (48 + d <=? 57) = true) as -> by lia. f_equal. lia.
  - assert ((48 <=? 87 + d) && (87 + d <=? 57) = false) as -> by lia.
    assert ((97 <=? 87 + d) && (87 + d <=? 102) = true) as -> by lia. f_equal. lia.
Qed.

Theorem hex_roundtrip b : Forall (fun x => x < 256) b -> hex_decode (hex_encode b) = Some b.
Proof.
  induction 1 as [|x r Hx Hr IH]; [reflexivity|]. cbn [hex_encode hex_decode].
  rewrite !unhex_hexdigit, IH by lia. do 2 f_equal. lia.
Qed.

Lemma unhex_upper c : unhex (upper c) = unhex c.
Proof.
  unfold upper. destruct ((97 <=? c) && (c <=? 122)) eqn:E; [|reflexivity].
  unfold unhex.
  assert ((48 <=? c - 32) && (c - 32 <=? 57) = false) as -> by lia.
  assert ((48 <=? c) && (c <=? 57) = false) as -> by lia.
  assert ((97 <=? c - 32) && (c - 32 <=? 102) = false) as -> by lia.
  assert ((65 <=? c) && (c <=? 70) = false) as -> by lia.
  assert ((65 <=? c - 32) && (c - 32 <=? 70) = (97 <=? c) && (c <=? 102)) as -> by lia.
  destruct ((97 <=? c) && (c <=? 102)); [f_equal; lia|reflexivity].
Qed.

Section KeyTable.
  Variable key : Type.
  Variable calc : key -> bytes.

  Lemma existsb_fst_false (acc : list (bytes * key)) id :
    existsb (fun e => bytes_eqb (fst e) id) acc = false <-> ~ In id (map fst acc).
  Proof.
    rewrite <- not_true_iff_false, existsb_exists, in_map_iff.
    split; intros N [e [A B]]; apply N; exists e; [apply bytes_eqb_eq in A|apply bytes_eqb_eq in B]; auto.
  Qed.

  Lemma parse_keys_iff entries : forall acc m, NoDup (map fst acc) ->
    parse_keys key calc acc entries = Some m <->
    Forall (fun e => hex_decode (fst e) = Some (calc (snd e))) entries
    /\ NoDup (map fst acc ++ map (fun e => calc (snd e)) entries)
    /\ m = rev acc ++ map (fun e => (calc (snd e), snd e)) entries.
  Proof.
    induction entries as [|[idtext k] rest IH]; intros acc m Hnd; cbn [parse_keys map fst snd].
    - rewrite !app_nil_r. split; [intros [= <-]; auto|intros (_ & _ & ->); reflexivity].
    - (* both sides say: the identifier is right and new, and the rest parses with it accepted *)
      rewrite Forall_cons_iff, (NoDup_Add (Add_app (calc k) _ _)), (and_comm (NoDup _)), <- NoDup_cons_iff.
      cbn [fst snd]. specialize (IH ((calc k, k) :: acc) m). cbn [map fst rev app] in IH.
      rewrite <- app_assoc in IH. cbn [app] in IH.
      destruct (hex_decode idtext) as [id|] eqn:Eh.
      2: { split; [discriminate|intros [[X _] _]; discriminate]. }
      destruct (bytes_eqb id (calc k)) eqn:Ec; cbn [negb].
      2: { apply bytes_eqb_neq in Ec. split; [discriminate|intros [[[= X] _] _]; contradiction]. }
      apply bytes_eqb_eq in Ec. subst id.
      destruct (existsb _ acc) eqn:Ed.
      + apply not_false_iff_true in Ed. rewrite existsb_fst_false in Ed.
        split; [discriminate|]. intros (_ & N & _). exfalso. apply Ed. intro X.
        apply NoDup_cons_iff in N as [N _]. apply N, in_or_app. left. exact X.
      + apply existsb_fst_false in Ed. split.
        * intro P. apply IH in P; [tauto|constructor; assumption].
        * intros ((_ & F) & N & E). apply IH; [constructor; assumption|auto].
  Qed.
End KeyTable.

Definition be_val (l : bytes) : N := fold_left (fun acc x => acc * 256 + x) l 0.

Lemma be_val_app l x : be_val (l ++ [x]) = be_val l * 256 + x.
Proof. unfold be_val. rewrite fold_left_app. reflexivity. Qed.

Lemma be_bytes_length f : forall n, (length (be_bytes f n) <= f)%nat.
Proof.
  induction f as [|f IH]; intro n; cbn [be_bytes]; [cbn; lia|].
  destruct (n =? 0); [cbn; lia|]. rewrite app_length. cbn [length]. specialize (IH (n / 256)). lia.
Qed.

Lemma be_val_be_bytes f : forall n, n < 256 ^ N.of_nat f -> be_val (be_bytes f n) = n.
Proof.
  induction f as [|f IH]; intros n Hn; cbn [be_bytes].
  - cbn in *. lia.
  - destruct (n =? 0) eqn:E; [cbn; lia|].
    rewrite Nat2N.inj_succ, N.pow_succ_r' in Hn. rewrite be_val_app, IH; lia.
Qed.

Lemma split_app {A : Type} (d r : list A) :
  (length (d ++ r) <? length d)%nat = false
  /\ firstn (length d) (d ++ r) = d /\ skipn (length d) (d ++ r) = r.
Proof.
  split; [rewrite app_length; apply Nat.ltb_ge, Nat.le_add_r|].
  rewrite firstn_app, skipn_app, Nat.sub_diag, firstn_all, skipn_all. cbn [firstn skipn].
  split; [apply app_nil_r|reflexivity].
Qed.

Lemma der_len_encode n r : n < 256 ^ 9 -> der_len (asn1_encode_len n ++ r) = Some (n, r).
Proof.
  intro Hn. unfold asn1_encode_len. destruct (n <? 128) eqn:E.
  - cbn [app der_len]. rewrite E. reflexivity.
  - pose proof (be_val_be_bytes 9 n Hn) as V.
    set (b := be_bytes 9 n) in *. cbn [app der_len].
    assert (Hb : b <> []) by (intro X; rewrite X in V; cbn in V; lia).
    assert (E1 : (128 + N.of_nat (length b) <? 128) = false) by lia. rewrite E1.
    assert (E2 : N.to_nat (128 + N.of_nat (length b) - 128) = length b) by lia. rewrite E2.
    assert (E3 : (length b =? 0)%nat = false) by (destruct b; [contradiction|reflexivity]). rewrite E3.
    destruct (split_app b r) as (-> & -> & ->). fold (be_val b). rewrite V. reflexivity.
Qed.

Lemma der_tlv_tag tag d r : N.of_nat (length d) < 256 ^ 9 ->
  der_tlv tag (asn1_tag tag d ++ r) = Some (d, r).
Proof.
  intro H. unfold asn1_tag. cbn [app der_tlv]. rewrite N.eqb_refl. rewrite <- app_assoc.
  rewrite der_len_encode by exact H. rewrite Nat2N.id.
  destruct (split_app d r) as (-> & -> & ->). reflexivity.
Qed.

(* 11: the tag, the length byte, and at most 9 bytes for a long-form length *)
Lemma asn1_tag_length tag d : (length (asn1_tag tag d) <= length d + 11)%nat.
Proof.
  unfold asn1_tag, asn1_encode_len. cbn [length]. rewrite app_length.
  destruct (N.of_nat (length d) <? 128); cbn [length]; [lia|].
  pose proof (be_bytes_length 9 (N.of_nat (length d))). lia.
Qed.

(* C13 takes the two algorithm identifiers the library uses (RSA; EC with P-256); 64 is any bound on the
   identifier that keeps the whole below the 256^9 a long-form length can express *)
Lemma spki_roundtrip_gen alg params b :
  alg_ok alg params (alg_ident alg params) = true -> (length (alg_ident alg params) <= 64)%nat ->
  N.of_nat (length b) < 2 ^ 60 ->
  spki_decode alg params (spki_encode alg params b) = Some b.
Proof.
  intros Hok Hai Hb. unfold spki_encode, spki_decode.
  (* the two powers as numerals, for lia *)
  assert (P : 256 ^ 9 = 4722366482869645213696) by reflexivity.
  assert (Q : 2 ^ 60 = 1152921504606846976) by reflexivity.
  pose proof (asn1_tag_length 48 (alg_ident alg params)) as L1.
  pose proof (asn1_tag_length 3 (0 :: b)) as L2. cbn [length] in L2.
  rewrite <- (app_nil_r (asn1_tag 48 (asn1_tag 48 (alg_ident alg params) ++ asn1_tag 3 (0 :: b)))).
  rewrite der_tlv_tag by (rewrite app_length; lia).
  rewrite der_tlv_tag by lia. rewrite Hok.
  rewrite <- (app_nil_r (asn1_tag 3 (0 :: b))). rewrite der_tlv_tag by (cbn [length]; lia).
  reflexivity.
Qed.

Example der_examples :
  asn1_encode_oid OID_RSA = [42; 134; 72; 134; 247; 13; 1; 1; 1]
  /\ to_vlq 16384 = [129; 128; 0] /\ to_vlq 268435455 = [255; 255; 255; 127]
  /\ asn1_encode_len 1110 = [130; 4; 86] /\ asn1_encode_len 132 = [129; 132].
Proof. vm_compute. repeat split; reflexivity. Qed.
