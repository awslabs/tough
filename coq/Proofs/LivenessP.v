(* Completeness of the update cycle: when nothing interrupts the client and its
   clock has not gone back, a repository whose documents verify under the root the walk ends with,
   are unexpired, fit their pins, and are not older than what the datastore holds is loaded
   successfully - whatever else the datastore contains, hence after any history of earlier cycles,
   interrupted or not. *)
From ToughV Require Import Model.Base Model.Pct Model.Deleg Model.Client.
From ToughV Require Import Proofs.BaseP Proofs.ClientP Proofs.DelegLoadP.

Definition quiet (w : world) : Prop := w_fault w = None.
Definition clock_fwd (now : Z) (s : store) : Prop := time_back now s = false.

Lemma ds_op_quiet fx w full trunc : quiet w ->
  exists w', ds_op fx w full trunc = (Ok tt, w') /\ w_store w' = full (w_store w) /\ quiet w'.
Proof.
  unfold quiet, ds_op. intro Q. rewrite Q. eexists. split; [reflexivity|]. cbn. auto.
Qed.

Lemma clock_fwd_same_time now s s' : st_time s' = st_time s -> clock_fwd now s -> clock_fwd now s'.
Proof. unfold clock_fwd, time_back. intros ->. auto. Qed.

Lemma check_expired_live fx cfg now e role w : quiet w -> clock_fwd now (w_store w) ->
  (c_enforce cfg = true -> (now <= e)%Z) ->
  exists w', check_expired fx cfg now e role w = (Ok tt, w') /\ quiet w' /\ clock_fwd now (w_store w')
             /\ same_docs (w_store w) (w_store w').
Proof.
  intros Q C He. unfold check_expired. destruct (c_enforce cfg).
  - unfold sys_time. unfold clock_fwd in C. rewrite C.
    destruct (ds_op_quiet fx w (upd_time (Some (SDoc now))) (upd_time (Some SCorrupt)) Q) as (w' & E & S & Q').
    rewrite E. assert ((now <=? e)%Z = true) as -> by (apply Z.leb_le, He; reflexivity).
    exists w'. split; [reflexivity|]. split; [exact Q'|]. rewrite S.
    split; [unfold clock_fwd, time_back; cbn; apply Z.ltb_irrefl|apply upd_time_same_docs].
  - exists w. split; [reflexivity|]. split; [exact Q|]. split; [exact C|apply same_docs_refl].
Qed.

(* the common end of the three loaders: the document is written over the store [s1] the expiry check left *)
Lemma check_put_live {A} fx cfg now e role full trunc (k : world -> res A * world) w :
  quiet w -> clock_fwd now (w_store w) -> (c_enforce cfg = true -> (now <= e)%Z) ->
  exists w3 s1, check_put fx cfg now e role full trunc k w = k w3 /\ quiet w3 /\ clock_fwd now s1
                /\ same_docs (w_store w) s1 /\ w_store w3 = full s1.
Proof.
  intros Q C He. unfold check_put.
  destruct (check_expired_live fx cfg now e role w Q C He) as (w2 & E & Q2 & C2 & S2). rewrite E.
  destruct (ds_op_quiet fx w2 full trunc Q2) as (w3 & E3 & S3 & Q3). rewrite E3.
  exists w3, (w_store w2). auto.
Qed.

Lemma rm_ts_snap_live fx w : quiet w ->
  exists w', rm_ts_snap fx w = (Ok tt, w') /\ quiet w' /\ w_store w' = upd_snap None (upd_ts None (w_store w)).
Proof.
  intro Q. unfold rm_ts_snap.
  destruct (ds_op_quiet fx w (upd_ts None) (upd_ts None) Q) as (w1 & E1 & S1 & Q1). rewrite E1.
  destruct (ds_op_quiet fx w1 (upd_snap None) (upd_snap None) Q1) as (w2 & E2 & S2 & Q2). rewrite E2.
  exists w2. split; [reflexivity|]. split; [exact Q2|]. rewrite S2, S1. reflexivity.
Qed.

Lemma finish_root_live cfg now ref r w : quiet w -> clock_fwd now (w_store w) ->
  (c_enforce cfg = true -> (now <= r_expires r)%Z) ->
  exists w', finish_root fixed cfg now ref r w = (Ok r, w') /\ quiet w' /\ clock_fwd now (w_store w')
             /\ online_kept_or_cleared (w_store w) (w_store w').
Proof.
  intros Q C He. unfold finish_root.
  destruct (check_expired_live fixed cfg now (r_expires r) 0 w Q C He) as (w2 & E & Q2 & C2 & (SR & ST & SS & SG)).
  rewrite E. cbn [fixed fx_prev_root].
  (* the record of the root, from the world [w3] that the removal of the online documents, if any, left *)
  assert (Record_root : forall w3, quiet w3 -> st_time (w_store w3) = st_time (w_store w2) ->
                  online_kept_or_cleared (w_store w) (w_store w3) ->
                  exists w', match ds_op fixed w3 (upd_root (Some (SDoc r))) (upd_root (Some SCorrupt)) with
                             | (Err c a, w4) => (Err c a, w4)
                             | (Ok _, w4) => (Ok r, w4)
                             end = (Ok r, w') /\ quiet w' /\ clock_fwd now (w_store w')
                             /\ online_kept_or_cleared (w_store w) (w_store w')).
  { intros w3 Q3 T3 K3.
    destruct (ds_op_quiet fixed w3 (upd_root (Some (SDoc r))) (upd_root (Some SCorrupt)) Q3) as (w4 & E4 & S4 & Q4).
    rewrite E4. exists w4. split; [reflexivity|]. split; [exact Q4|]. rewrite S4.
    split; [exact (clock_fwd_same_time _ _ _ T3 C2)|exact K3]. }
  destruct (rotated ref r).
  - destruct (rm_ts_snap_live fixed w2 Q2) as (w3 & E3 & Q3 & S3). rewrite E3.
    apply (Record_root w3 Q3); rewrite S3; [reflexivity|]. split; [symmetry; exact SG|split; right; reflexivity].
  - apply (Record_root w2 Q2 eq_refl). split; [symmetry; exact SG|split; left; symmetry; assumption].
Qed.

(* the walk does not depend on the world, so any run of it that ended with [r] will do *)
Lemma load_root_live cfg r0 srv now w r wx wx' : root_verify r0 0 (r_sigs r0) = true ->
  root_walk fixed (c_fuel cfg) cfg srv (r_version r0) r0 wx = (Ok r, wx') ->
  quiet w -> clock_fwd now (w_store w) -> (c_enforce cfg = true -> (now <= r_expires r)%Z) ->
  exists w', load_root fixed cfg (CRoot r0) srv now w = (Ok r, w') /\ quiet w' /\ clock_fwd now (w_store w')
             /\ online_kept_or_cleared (w_store w) (w_store w').
Proof.
  intros V Ew Q C He. unfold load_root. rewrite V. cbn [negb].
  rewrite root_walk_world in Ew |- *.
  destruct (root_walk fixed (c_fuel cfg) cfg srv (r_version r0) r0 (world0 store0 None)) as [res w0].
  injection Ew as -> _.
  exact (finish_root_live cfg now (reference_root fixed r0 (w_store w)) r (logs w (w_log w0)) Q C He).
Qed.

(* the rollback check of steps 2 and 4 lets through what is not older than the stored document *)
Lemma not_older {D} (ok : D -> bool) (ver : D -> N) (o : option (stored D)) v :
  (forall old, o = Some (SDoc old) -> ok old = true -> ver old <= v) ->
  match o with Some (SDoc old) => ok old && (v <? ver old) | _ => false end = false.
Proof.
  intro H. destruct o as [[|old]|]; try reflexivity. destruct (ok old) eqn:V; [|reflexivity].
  apply N.ltb_ge, (H old eq_refl V).
Qed.

Lemma load_timestamp_live cfg r srv now w ts : quiet w -> clock_fwd now (w_store w) ->
  ts_accepted cfg r srv now (w_store w) ts ->
  exists w', load_timestamp fixed cfg r srv now w = (Ok ts, w') /\ quiet w' /\ clock_fwd now (w_store w')
             /\ st_snap (w_store w') = st_snap (w_store w) /\ st_tgt (w_store w') = st_tgt (w_store w).
Proof.
  intros Q C ((file & Hf & Hb) & V & Hold & He). unfold load_timestamp. rewrite Hf, Hb, V. cbn [negb].
  rewrite logged_store.
  rewrite (not_older (fun old => root_verify r 3 (ts_sigs old)) ts_version _ _ Hold).
  destruct (check_put_live fixed cfg now (ts_expires ts) 3 (upd_ts (Some (SDoc ts))) (upd_ts (Some SCorrupt))
              (fun w3 => (Ok ts, w3)) (logged w name_timestamp) Q C He) as (w3 & s1 & E & Q3 & C1 & (_ & _ & SS & SG) & S3).
  exists w3. split; [exact E|]. split; [exact Q3|]. rewrite S3. split; [exact C1|]. split; symmetry; assumption.
Qed.

Lemma load_snapshot_live cfg r ts srv now w sn : quiet w -> clock_fwd now (w_store w) ->
  snap_accepted cfg r ts srv now (w_store w) sn ->
  exists w', load_snapshot fixed cfg r ts srv now w = (Ok sn, w') /\ quiet w' /\ clock_fwd now (w_store w')
             /\ st_tgt (w_store w') = st_tgt (w_store w).
Proof.
  intros Q C ((m & file & Hm & Hf & Hb & Hv) & V & Hold & He). unfold load_snapshot. rewrite Hm, Hf, Hb, V.
  assert ((sn_version sn =? m_version m) = true) as -> by (apply N.eqb_eq, Hv). cbn [negb].
  rewrite logged_store.
  match goal with |- context [match ?chk with Ok _ => _ | Err c a => (Err c a, _) end] =>
    assert (chk = Ok tt) as -> end.
  { destruct (st_snap (w_store w)) as [[|old]|] eqn:So; try reflexivity.
    destruct (root_verify r 1 (sn_sigs old)) eqn:Vo; [|reflexivity].
    destruct (Hold old eq_refl Vo) as [Hver Hlist].
    assert ((sn_version sn <? sn_version old) = false) as -> by (apply N.ltb_ge; exact Hver).
    destruct (lookup name_targets (sn_meta old)) as [om|] eqn:Lo; [|reflexivity].
    destruct (Hlist om eq_refl) as (nm & Ln & Hle). rewrite Ln.
    assert ((m_version nm <? m_version om) = false) as -> by (apply N.ltb_ge; exact Hle). reflexivity. }
  destruct (check_put_live fixed cfg now (sn_expires sn) 1 (upd_snap (Some (SDoc sn))) (upd_snap (Some SCorrupt))
              (fun w3 => (Ok sn, w3)) (logged w (versioned (r_cs r) (m_version m) name_snapshot)) Q C He)
    as (w3 & s1 & E & Q3 & C1 & (_ & _ & _ & SG) & S3).
  exists w3. split; [exact E|]. split; [exact Q3|]. rewrite S3. split; [exact C1|]. symmetry. exact SG.
Qed.

Definition dframe (w w' : world) : Prop :=
  same_docs (w_store w) (w_store w') /\ st_time (w_store w') = st_time (w_store w) /\ quiet w'.

Lemma dframe_refl w : quiet w -> dframe w w.
Proof. intro Q. split; [apply same_docs_refl|auto]. Qed.
Lemma dframe_trans a b c : dframe a b -> dframe b c -> dframe a c.
Proof.
  intros (S1 & T1 & Q1) (S2 & T2 & Q2). split; [eapply same_docs_trans; eassumption|]. split; [congruence|exact Q2].
Qed.

(* for a role that passes the checks of the first loop only an interruption stands between the request and what
   follows the record of the file name; the world [w2] after it does not depend on what follows *)
Lemma fetch_role_live fx cfg srv snap cs lim dkeys all anc name t w :
  role_fetched fx cfg srv snap cs lim dkeys all anc name t -> quiet w ->
  exists w2, quiet w2 /\ forall A (k : targets -> world -> res A * world),
    fetch_role fx cfg srv snap cs lim dkeys all anc name k w = k t w2.
Proof.
  intros (Ha & m & file & Hm & Hf & Hb & Hv & Hver) Q.
  set (path := role_filename cs (m_version m) name) in *.
  destruct (ds_op_quiet fx (logged w path) (add_other path) (add_other path) Q) as (w2 & E2 & _ & Q2).
  exists w2. split; [exact Q2|]. intros A k. unfold fetch_role. rewrite Ha, Hm. cbv zeta. fold path.
  rewrite Hf, Hb, Hv, (proj2 (N.eqb_eq _ _) Hver). cbn [negb]. rewrite E2. reflexivity.
Qed.

Section DLive.
  Variables (cfg : config) (srv : server) (snap : snapshot) (cs : bool) (lim : N).

  Definition role_doc (name : bytes) : option targets :=
    match lookup (json_of name) (sn_meta snap) with
    | None => None
    | Some m =>
        match fetch srv (role_filename cs (m_version m) name)
                    (opt_default (m_length m) (c_max_targets_size cfg)) (m_hash m) with
        | FOk file => match f_body file with CTargets t => Some t | _ => None end
        | FErr _ => None
        end
    end.

  Lemma role_fetch_ok_doc dkeys all name t0 :
    role_fetch_ok cfg srv snap cs dkeys all name t0 -> role_doc name = Some t0.
  Proof. intros (m & file & Hm & Hf & Hb & _). unfold role_doc. rewrite Hm, Hf, Hb. reflexivity. Qed.

  (* a delegation tree that can be loaded with [n] levels of recursion: at every level role names are
     pairwise distinct and none is among its ancestors, and every role's file is acceptable. (In every file
     that imports this one the name hides the case tree [tree] of Model/Base.v.) *)
  Fixpoint tree (n : nat) (anc : list bytes) (dkeys : list N) (roles rs : list (dhdr * option targets)) : Prop :=
    match n with
    | O => False
    | S n' =>
        NoDup (map (fun hc => dh_name (fst hc)) roles)
        /\ Forall2 (fun hc out =>
             fst out = fst hc /\ ~ In (dh_name (fst hc)) anc
             /\ exists t0, role_fetch_ok cfg srv snap cs dkeys roles (dh_name (fst hc)) t0
                /\ ((tg_has_deleg t0 = false /\ snd out = Some t0)
                    \/ (tg_has_deleg t0 = true
                        /\ exists rs', snd out = Some (tg_set_roles t0 rs')
                             /\ tree n' (anc ++ [dh_name (fst hc)]) (tg_dkeys t0) (tg_roles t0) rs'))) roles rs
    end.

  (* one level of it: [out] is the entry [hc] of the list [all] with its file completed, [Rec] describes the
     trees below *)
  Definition tree_level (Rec : list bytes -> list N -> list (dhdr * option targets) -> list (dhdr * option targets) -> Prop)
             (anc : list bytes) (dkeys : list N) (all : list (dhdr * option targets))
             (hc out : dhdr * option targets) : Prop :=
    fst out = fst hc /\ ~ In (dh_name (fst hc)) anc
    /\ exists t0 t, role_fetch_ok cfg srv snap cs dkeys all (dh_name (fst hc)) t0 /\ snd out = Some t
         /\ attached (Rec (anc ++ [dh_name (fst hc)]) (tg_dkeys t0) (tg_roles t0)) t0 t.

  Lemma tree_S n anc dkeys roles rs : tree (S n) anc dkeys roles rs ->
    NoDup (map (fun hc => dh_name (fst hc)) roles) /\ Forall2 (tree_level (tree n) anc dkeys roles) roles rs.
  Proof.
    intros (ND & F). split; [exact ND|]. revert F. apply Forall2_impl.
    intros hc out (E & Hanc & t0 & Hok & Hcase). split; [exact E|]. split; [exact Hanc|]. exists t0.
    destruct Hcase as [(Hd & Eo)|(Hd & rs' & Eo & HT)].
    - exists t0. split; [exact Hok|]. split; [exact Eo|]. left. auto.
    - exists (tg_set_roles t0 rs'). split; [exact Hok|]. split; [exact Eo|]. right. split; [exact Hd|]. exists rs'. auto.
  Qed.

  Lemma load_delegs_dframe fuel dk rs anc w r w' :
    load_delegs fixed cfg srv snap cs lim fuel dk rs anc w = (r, w') -> quiet w -> dframe w w'.
  Proof.
    intro H.
    apply (load_delegs_sat fixed cfg srv snap cs lim (fun w w' => quiet w -> dframe w w') (fun _ => True)) in H as [F _];
      [exact F|exact dframe_refl| | | |intros; exact I|exact I].
    - (* transitive *) intros a b c Fab Fbc Q. pose proof (Fab Q) as F. exact (dframe_trans _ _ _ F (Fbc (proj2 (proj2 F)))).
    - (* a request *) intros w0 name m _ Q. exact (dframe_refl w0 Q).
    - (* the record of a file name *) intros w0 p r0 w1 Eo Q.
      destruct (ds_op_quiet fixed w0 (add_other p) (add_other p) Q) as (w2 & E2 & S2 & Q2).
      rewrite E2 in Eo. injection Eo as _ <-.
      split; [rewrite S2; apply add_other_same_docs|]. split; [rewrite S2; reflexivity|exact Q2].
  Qed.

  Lemma fetch_level_live dkeys all anc : forall todo acc w, quiet w ->
    (forall hc, In hc todo -> ~ In (dh_name (fst hc)) anc
                              /\ exists t0, role_fetch_ok cfg srv snap cs dkeys all (dh_name (fst hc)) t0) ->
    exists fetched w',
      fetch_level fixed cfg srv snap cs lim dkeys all todo anc acc w = (Ok fetched, w') /\ quiet w'
      /\ forall k, lookup k fetched = if mem_bytes k (map (fun hc => dh_name (fst hc)) todo) then role_doc k
                                      else lookup k acc.
  Proof.
    induction todo as [|[h o] rest IH]; intros acc w Q Hall.
    { exists acc, w. split; [reflexivity|]. split; [exact Q|]. intro k. reflexivity. }
    destruct (Hall (h, o) (or_introl eq_refl)) as (Hanc & t0 & Hok). cbn [fst] in *.
    pose proof (role_fetch_ok_doc _ _ _ _ Hok) as Hdoc.
    destruct (fetch_role_live fixed cfg srv snap cs lim dkeys all anc (dh_name h) t0 w) as (w2 & Q2 & E2); [|exact Q|].
    { split; [|exact Hok]. destruct (mem_bytes (dh_name h) anc) eqn:M; [apply mem_bytes_In in M; contradiction|reflexivity]. }
    rewrite fetch_level_cons, E2.
    destruct (IH (assoc_insert (dh_name h) t0 acc) w2 Q2) as (fetched & w' & E & Q' & Hl).
    { intros hc Hin. apply Hall. right. exact Hin. }
    exists fetched, w'. split; [exact E|]. split; [exact Q'|].
    intro k. rewrite Hl. cbn [map fst mem_bytes].
    destruct (mem_bytes k (map (fun hc => dh_name (fst hc)) rest)) eqn:M; [rewrite orb_true_r; reflexivity|].
    rewrite orb_false_r. destruct (bytes_eqb k (dh_name h)) eqn:E1.
    - apply bytes_eqb_eq in E1. subst k. rewrite lookup_insert_same. symmetry. exact Hdoc.
    - apply bytes_eqb_neq in E1. apply lookup_insert_other. exact E1.
  Qed.

  Section Second.
    Variable rec : list N -> list (dhdr * option targets) -> list bytes -> world
                   -> res (list (dhdr * option targets)) * world.
    Variable Rec : list bytes -> list N -> list (dhdr * option targets) -> list (dhdr * option targets) -> Prop.
    Hypothesis Hrec : forall anc dk rs rs' w, Rec anc dk rs rs' -> quiet w ->
      exists w', rec dk rs anc w = (Ok rs', w') /\ dframe w w'.

    Lemma complete_role_live anc t0 t w : attached (Rec anc (tg_dkeys t0) (tg_roles t0)) t0 t -> quiet w ->
      exists w1, complete_role rec anc t0 w = (Ok t, w1) /\ quiet w1.
    Proof.
      intros [(Hd & ->)|(Hd & rs' & -> & HR)] Q; unfold complete_role; rewrite Hd; [exists w; auto|].
      destruct (Hrec _ _ _ _ w HR Q) as (w1 & -> & _ & _ & Q1). exists w1. auto.
    Qed.

    (* names being distinct, the document of each role is still among [remaining] when its turn comes *)
    Lemma second_loop_live dkeys all anc : forall todo outs remaining w, quiet w ->
      NoDup (map (fun hc => dh_name (fst hc)) todo) ->
      (forall hc t0, In hc todo -> role_fetch_ok cfg srv snap cs dkeys all (dh_name (fst hc)) t0 ->
                     lookup (dh_name (fst hc)) remaining = Some t0) ->
      Forall2 (tree_level Rec anc dkeys all) todo outs ->
      exists w', second_loop rec anc todo remaining w = (Ok outs, w').
    Proof.
      induction todo as [|[h o] rest IH]; intros outs remaining w Q ND Hrem F; inversion F as [|x y l l' Hxy Hrest]; subst.
      { exists w. reflexivity. }
      rewrite second_loop_cons. destruct y as [h' c']. destruct Hxy as (E1 & _ & t0 & t & Hok & Eo & Hcase).
      pose proof (Hrem (h, o) t0 (or_introl eq_refl) Hok) as Hl. cbn [fst snd] in *. subst h' c'.
      rewrite Hl. inversion ND as [|a b Hnotin ND']; subst.
      destruct (complete_role_live _ _ _ w Hcase Q) as (w1 & -> & Q1).
      destruct (IH l' (assoc_remove (dh_name h) remaining) w1 Q1 ND') as (w2 & ->); [|exact Hrest|exists w2; reflexivity].
      intros hc t1 Hin Hok1. rewrite lookup_remove_other; [apply Hrem; [right; exact Hin|exact Hok1]|].
      intro Eq. apply Hnotin. rewrite <- Eq. apply (in_map (fun hc => dh_name (fst hc))), Hin.
    Qed.
  End Second.

  Theorem load_delegs_live : forall n anc dkeys roles rs w, tree n anc dkeys roles rs -> quiet w ->
    exists w', load_delegs fixed cfg srv snap cs lim n dkeys roles anc w = (Ok rs, w') /\ dframe w w'.
  Proof.
    induction n as [|n IH]; intros anc dkeys roles rs w T Q; [destruct T|]. apply tree_S in T as (ND & F).
    assert (exists w', load_delegs fixed cfg srv snap cs lim (S n) dkeys roles anc w = (Ok rs, w')) as (w' & E).
    { cbn [load_delegs]. destruct (fetch_level_live dkeys roles anc roles [] w Q) as (fetched & w1 & E1 & Q1 & Hl).
      { intros hc Hin. destruct (Forall2_in_l _ _ _ _ F Hin) as (y & _ & Hanc & t0 & t & Hok & _).
        split; [exact Hanc|exists t0; exact Hok]. }
      rewrite E1. apply (second_loop_live _ (tree n) IH dkeys roles anc roles rs fetched w1 Q1 ND); [|exact F].
      intros hc t0 Hin Hok. rewrite Hl.
      assert (mem_bytes (dh_name (fst hc)) (map (fun hc => dh_name (fst hc)) roles) = true) as ->.
      { apply mem_bytes_In. apply (in_map (fun hc => dh_name (fst hc))). exact Hin. }
      eapply role_fetch_ok_doc. exact Hok. }
    exists w'. split; [exact E|exact (load_delegs_dframe _ _ _ _ _ _ _ E Q)].
  Qed.
End DLive.

Section AnyWorld.
  Variables (fx : fixes) (cfg : config) (srv : server) (snap : snapshot) (cs : bool) (lim : N).

  Lemma fetch_level_any_world dkeys all anc : forall todo acc w fetched w',
    fetch_level fx cfg srv snap cs lim dkeys all todo anc acc w = (Ok fetched, w') -> forall w2, quiet w2 ->
    exists w2', fetch_level fx cfg srv snap cs lim dkeys all todo anc acc w2 = (Ok fetched, w2') /\ quiet w2'.
  Proof.
    induction todo as [|[h o] rest IH]; intros acc w fetched w' H w2 Q.
    { injection H as <- _. exists w2. auto. }
    rewrite fetch_level_cons in H |- *.
    apply fetch_role_inv in H as [(c & a & [=] & _)|(t & w1 & Hc & _ & H)].
    destruct (fetch_role_live _ _ _ _ _ _ _ _ _ _ _ w2 Hc Q) as (w3 & Q3 & E3). rewrite E3. exact (IH _ _ _ _ H w3 Q3).
  Qed.

  Definition rec_any_world (rec : list N -> list (dhdr * option targets) -> list bytes -> world
                             -> res (list (dhdr * option targets)) * world) : Prop :=
    forall dk rs anc w out w', rec dk rs anc w = (Ok out, w') -> forall w2, quiet w2 ->
      exists w2', rec dk rs anc w2 = (Ok out, w2') /\ quiet w2'.

  Lemma complete_role_any_world rec : rec_any_world rec -> forall anc t w t' w',
    complete_role rec anc t w = (Ok t', w') -> forall w2, quiet w2 ->
    exists w2', complete_role rec anc t w2 = (Ok t', w2') /\ quiet w2'.
  Proof.
    intros Hrec anc t w t' w' H w2 Q. unfold complete_role in *.
    destruct (tg_has_deleg t); [|injection H as <- _; exists w2; auto].
    destruct (rec (tg_dkeys t) (tg_roles t) anc w) as [[rs|c a] w1] eqn:E1; [|discriminate]. injection H as <- _.
    destruct (Hrec _ _ _ _ _ _ E1 w2 Q) as (w3 & -> & Q3). exists w3. auto.
  Qed.

  Lemma second_loop_any_world rec : rec_any_world rec -> forall todo anc remaining w out w',
    second_loop rec anc todo remaining w = (Ok out, w') -> forall w2, quiet w2 ->
    exists w2', second_loop rec anc todo remaining w2 = (Ok out, w2') /\ quiet w2'.
  Proof.
    intro Hrec. induction todo as [|[h o] rest IH]; intros anc remaining w out w' H w2 Q.
    { injection H as <- _. exists w2. auto. }
    rewrite second_loop_cons in H |- *. destruct (lookup (dh_name h) remaining) as [t|]; [|discriminate].
    destruct (complete_role rec (anc ++ [dh_name h]) t w) as [[t'|c a] w1] eqn:E1; [|discriminate].
    destruct (complete_role_any_world _ Hrec _ _ _ _ _ E1 w2 Q) as (w3 & -> & Q3).
    destruct (second_loop rec anc rest (assoc_remove (dh_name h) remaining) w1) as [[rs2|c a] w4] eqn:E2; [|discriminate].
    destruct (IH _ _ _ _ _ E2 w3 Q3) as (w5 & -> & Q5). injection H as <- _. exists w5. auto.
  Qed.

  Lemma load_delegs_any_world fuel : rec_any_world (load_delegs fx cfg srv snap cs lim fuel).
  Proof.
    induction fuel as [|f IH]; intros dk rs anc w out w' H w2 Q; cbn [load_delegs] in H |- *; [discriminate|].
    destruct (fetch_level fx cfg srv snap cs lim dk rs rs anc [] w) as [[fetched|c a] w1] eqn:E1; [|discriminate].
    destruct (fetch_level_any_world _ _ _ _ _ _ _ _ E1 w2 Q) as (w3 & E3 & Q3). rewrite E3.
    exact (second_loop_any_world _ IH _ _ _ _ _ _ H w3 Q3).
  Qed.
End AnyWorld.

(* [attached (tree cfg srv sn cs (c_fuel cfg) (top_ancestors fixed) (tg_dkeys t0) (tg_roles t0)) t0 t]: what
   load_targets makes of an accepted targets.json [t0] whose delegation tree is loadable *)
Definition tgt_tree (cfg : config) (srv : server) (sn : snapshot) (cs : bool) (t0 t : targets) : Prop :=
  (tg_has_deleg t0 = false /\ t = t0)
  \/ (tg_has_deleg t0 = true
      /\ exists rs, t = tg_set_roles t0 rs
                    /\ tree cfg srv sn cs (c_fuel cfg) (top_ancestors fixed) (tg_dkeys t0) (tg_roles t0) rs).

(* up to the write of targets.json; the delegated roles are attached from [w3] *)
Lemma load_targets_head_live cfg r sn srv now w t0 : quiet w -> clock_fwd now (w_store w) ->
  tgt_accepted cfg r sn srv now (w_store w) t0 ->
  exists m w3, lookup name_targets (sn_meta sn) = Some m /\ quiet w3
    /\ load_targets fixed cfg r sn srv now w
       = attach fixed cfg srv sn (r_cs r) (opt_default (m_length m) (c_max_targets_size cfg)) t0 w3.
Proof.
  intros Q C ((m & file & Hm & Hf & Hb & Hv) & V & Hold & He). unfold load_targets.
  rewrite Hm, Hf, Hb, V. assert ((tg_version t0 =? m_version m) = true) as -> by (apply N.eqb_eq, Hv).
  cbn [negb]. rewrite logged_store.
  rewrite (not_older (fun old => root_verify r 2 (tg_sigs old)) tg_version _ _ Hold).
  destruct (check_put_live fixed cfg now (tg_expires t0) 2 (upd_tgt (Some (SDoc t0))) (upd_tgt (Some SCorrupt))
              (attach fixed cfg srv sn (r_cs r) (opt_default (m_length m) (c_max_targets_size cfg)) t0)
              (logged w (versioned (r_cs r) (m_version m) name_targets)) Q C He) as (w3 & s1 & E & Q3 & _).
  exists m, w3. split; [reflexivity|]. split; [exact Q3|exact E].
Qed.

Lemma load_targets_live cfg r sn srv now w t0 t : quiet w -> clock_fwd now (w_store w) ->
  tgt_accepted cfg r sn srv now (w_store w) t0 -> tgt_tree cfg srv sn (r_cs r) t0 t -> validate t = true ->
  exists w', load_targets fixed cfg r sn srv now w = (Ok t, w').
Proof.
  intros Q C A HT Hval. destruct (load_targets_head_live cfg r sn srv now w t0 Q C A) as (m & w3 & _ & Q3 & ->).
  unfold attach.
  destruct (complete_role_live _ _ (load_delegs_live cfg srv sn (r_cs r) (opt_default (m_length m) (c_max_targets_size cfg))
                                      (c_fuel cfg)) _ _ _ w3 HT Q3) as (w4 & -> & _).
  rewrite Hval. exists w4. reflexivity.
Qed.

Theorem cycle_live c s r ts sn t0 t :
  cy_fault c = None -> clock_fwd (cy_now c) s ->
  final_root fixed c = Some r ->
  (c_enforce (cy_cfg c) = true -> (cy_now c <= r_expires r)%Z) ->
  ts_accepted (cy_cfg c) r (cy_srv c) (cy_now c) s ts ->
  snap_accepted (cy_cfg c) r ts (cy_srv c) (cy_now c) s sn ->
  tgt_accepted (cy_cfg c) r sn (cy_srv c) (cy_now c) s t0 ->
  tgt_tree (cy_cfg c) (cy_srv c) sn (r_cs r) t0 t -> validate t = true ->
  exists w', run_cycle fixed c s = (Ok {| rp_root := r; rp_ts := ts; rp_snap := sn; rp_targets := t |}, w').
Proof.
  intros Hflt C Hfr Hre Hts Hsn Htg HT Hval. unfold run_cycle.
  unfold final_root in Hfr. destruct (cy_shipped c) as [|r0| | |]; try discriminate.
  destruct (root_verify r0 0 (r_sigs r0)) eqn:V0; [|discriminate].
  destruct (root_walk fixed (c_fuel (cy_cfg c)) (cy_cfg c) (cy_srv c) (r_version r0) r0 (world0 store0 None))
    as [[r'|c0 a0] wx] eqn:Ew; [|discriminate]. injection Hfr as ->.
  destruct (load_root_live _ _ _ (cy_now c) (world0 s (cy_fault c)) _ _ _ V0 Ew Hflt C Hre)
    as (w2 & E2 & Q2 & C2 & KG & Kts & Ksn). cbn [world0 w_store] in KG, Kts, Ksn.
  destruct (load_timestamp_live (cy_cfg c) r (cy_srv c) (cy_now c) w2 ts Q2 C2 (ts_accepted_mono _ _ _ _ _ _ _ Kts Hts))
    as (w3 & E3 & Q3 & C3 & SS3 & SG3).
  rewrite <- SS3 in Ksn.
  destruct (load_snapshot_live (cy_cfg c) r ts (cy_srv c) (cy_now c) w3 sn Q3 C3 (snap_accepted_mono _ _ _ _ _ _ _ _ Ksn Hsn))
    as (w4 & E4 & Q4 & C4 & SG4).
  assert (Ktg : st_tgt (w_store w4) = st_tgt s) by congruence.
  destruct (load_targets_live (cy_cfg c) r sn (cy_srv c) (cy_now c) w4 t0 t Q4 C4 (tgt_accepted_mono _ _ _ _ _ _ _ _ Ktg Htg) HT Hval)
    as (w5 & E5).
  exists w5. exact (cycle_ok_intro E2 E3 E4 E5).
Qed.
