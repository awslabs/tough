(* The steps of an update cycle, each characterised once: what a step can return, what it logs and
   which datastores it can leave behind. The statements hold for all variants of the code; the atomic
   store is the special case in which [wrote] loses its third alternative, and the last section carries
   a preorder on atomic datastores through a whole cycle, write by write. *)
From ToughV Require Import Model.Base Model.Pct Model.Sig Model.Deleg Model.Client.
From ToughV Require Import Proofs.BaseP Proofs.SigP.

Definition same_docs (s s' : store) : Prop :=
  st_root s = st_root s' /\ st_ts s = st_ts s' /\ st_snap s = st_snap s' /\ st_tgt s = st_tgt s'.

Lemma same_docs_refl s : same_docs s s.
Proof. repeat split. Qed.
Lemma same_docs_trans a b c : same_docs a b -> same_docs b c -> same_docs a c.
Proof. unfold same_docs. intros (?&?&?&?) (?&?&?&?). repeat split; congruence. Qed.

(* the stores a write can leave behind: nothing happened, it took effect, or (truncate-and-write
   only) the file was left truncated *)
Definition wrote (fx : fixes) (full trunc : store -> store) (s s' : store) : Prop :=
  s' = s \/ s' = full s \/ (fx_atomic_store fx = false /\ s' = trunc s).

Definition ds_code (c : N) : Prop := c = E_Killed \/ c = E_Datastore.

Lemma ds_op_inv fx w full trunc r w' : ds_op fx w full trunc = (r, w') ->
  w_log w' = w_log w /\ w_fault w' = w_fault w /\ wrote fx full trunc (w_store w) (w_store w') /\
  match r with
  | Ok _ => w_store w' = full (w_store w)
  | Err c a => ds_code c /\ a = 0 /\ w_fault w <> None
  end.
Proof.
  unfold ds_op. intro H.
  assert (Full : wrote fx full trunc (w_store w) (full (w_store w))) by (right; left; reflexivity).
  destruct (w_fault w) as [[k kind]|]; [|injection H as <- <-; cbn; auto].
  destruct (Nat.eqb k (w_ops w)); [|injection H as <- <-; cbn; auto].
  (* the fault strikes: before the write, in the middle of it, after it, or the write fails *)
  assert (Same : wrote fx full trunc (w_store w) (w_store w)) by (left; reflexivity).
  assert (Mid : wrote fx full trunc (w_store w) ((if fx_atomic_store fx then fun s => s else trunc) (w_store w))).
  { unfold wrote. destruct (fx_atomic_store fx); auto. }
  assert (N : Some (k, kind) <> None) by discriminate.
  assert (K : ds_code E_Killed) by (left; reflexivity). assert (D : ds_code E_Datastore) by (right; reflexivity).
  destruct (kind =? 1); [|destruct (kind =? 2); [|destruct (kind =? 3)]]; injection H as <- <-;
    cbn [w_store w_log w_fault set_store]; auto 6.
Qed.

Lemma wrote_atomic fx full trunc s s' :
  fx_atomic_store fx = true -> wrote fx full trunc s s' -> s' = s \/ s' = full s.
Proof. intros Ha [H|[H|[H _]]]; [auto|auto|congruence]. Qed.

(* Datastore::system_time and check_expired: the only thing they can write is the clock value *)
Definition timed (fx : fixes) (now : Z) : store -> store -> Prop :=
  wrote fx (upd_time (Some (SDoc now))) (upd_time (Some SCorrupt)).

Lemma timed_refl fx now s : timed fx now s s.
Proof. left. reflexivity. Qed.

Lemma upd_time_same_docs v s : same_docs s (upd_time v s).
Proof. repeat split. Qed.

Lemma timed_same_docs fx now s s' : timed fx now s s' -> same_docs s s'.
Proof. intros [->|[->|[_ ->]]]; [apply same_docs_refl|apply upd_time_same_docs|apply upd_time_same_docs]. Qed.

Lemma sys_time_inv fx now w r w' : sys_time fx now w = (r, w') ->
  w_log w' = w_log w /\ w_fault w' = w_fault w /\ timed fx now (w_store w) (w_store w') /\
  match r with
  | Ok t => t = now /\ time_back now (w_store w) = false
            /\ w_store w' = upd_time (Some (SDoc now)) (w_store w)
  | Err c a => (c = E_TimeBack /\ time_back now (w_store w) = true) \/ ds_code c
  end.
Proof.
  unfold sys_time. intro H. destruct (time_back now (w_store w)).
  { injection H as <- <-. repeat split; [apply timed_refl|left; auto]. }
  destruct (ds_op fx w (upd_time (Some (SDoc now))) (upd_time (Some SCorrupt))) as [r0 w0] eqn:E.
  apply ds_op_inv in E as (L & F & W & R).
  destruct r0 as [u|c a]; injection H as <- <-; repeat split; auto. right. apply R.
Qed.

Lemma check_expired_inv fx cfg now e role w r w' : check_expired fx cfg now e role w = (r, w') ->
  w_log w' = w_log w /\ w_fault w' = w_fault w /\ timed fx now (w_store w) (w_store w') /\
  match r with
  | Ok _ => c_enforce cfg = true -> (now <= e)%Z /\ time_back now (w_store w) = false
  | Err c a => c_enforce cfg = true /\
      ((c = E_Expired /\ a = role /\ (e < now)%Z) \/ c = E_TimeBack \/ c = E_Killed \/ c = E_Datastore)
  end.
Proof.
  unfold check_expired. intro H. destruct (c_enforce cfg).
  2:{ injection H as <- <-. repeat split; [apply timed_refl|discriminate|discriminate]. }
  destruct (sys_time fx now w) as [[t|c0 a0] w0] eqn:E; apply sys_time_inv in E as (L & F & W & R).
  - destruct R as (-> & B & _). destruct (now <=? e)%Z eqn:Le; injection H as <- <-; repeat split; auto; lia.
  - injection H as <- <-. repeat split; auto. right. destruct R as [[-> _]|R]; [left; reflexivity|right; exact R].
Qed.

(* the codes with which a step stops, other than those of load_delegations and of the root walk *)
Definition stop_code (cfg : config) (c : N) : Prop :=
  In c [E_Transport; E_Parse; E_Verify; E_Older; E_MetaMissing; E_VersionMismatch; E_Killed; E_Datastore]
  \/ (c_enforce cfg = true /\ (c = E_Expired \/ c = E_TimeBack)).

Lemma ds_code_stop cfg c : ds_code c -> stop_code cfg c.
Proof. intros [->| ->]; left; cbn; auto 9. Qed.

Lemma check_expired_stop cfg c (a role : N) (e now : Z) :
  c_enforce cfg = true /\
  ((c = E_Expired /\ a = role /\ (e < now)%Z) \/ c = E_TimeBack \/ c = E_Killed \/ c = E_Datastore) ->
  stop_code cfg c.
Proof.
  intros (He & [(-> & _)|[->|D]]); [right; auto|right; auto|apply ds_code_stop, D].
Qed.

Lemma logged_store w n : w_store (logged w n) = w_store w. Proof. reflexivity. Qed.
Lemma logged_fault w n : w_fault (logged w n) = w_fault w. Proof. reflexivity. Qed.
Lemma logged_log w n : w_log (logged w n) = w_log w ++ [n]. Proof. reflexivity. Qed.

Definition logs (w : world) (l : list bytes) : world :=
  {| w_store := w_store w; w_log := w_log w ++ l; w_ops := w_ops w; w_fault := w_fault w |}.

Lemma logs_nil w : logs w [] = w.
Proof. destruct w. unfold logs. cbn. rewrite app_nil_r. reflexivity. Qed.

Lemma logs_logged w n l : logs (logged w n) l = logs w (n :: l).
Proof. unfold logs. cbn. rewrite <- app_assoc. reflexivity. Qed.

(* what the walk finds when it asks for the version after that of [cur]: a root to move on to, reason to
   stop at [cur], or an error. (Role codes, as in Model/Client.v: 0 root, 1 snapshot, 2 targets, 3 timestamp.) *)
Inductive answer := Hop (new : root) | Stop | Fail (code arg : N).

Definition read_answer (cur : root) (y : fres) : answer :=
  match y with
  | FErr sub => if (sub =? 0) || (sub =? 1) || (sub =? 5) then Stop else Fail E_Transport sub
  | FOk file =>
      match f_body file with
      | CRoot new =>
          if negb (root_verify cur 0 (r_sigs new)) then Fail E_Verify 0
          else if negb (root_verify new 0 (r_sigs new)) then Fail E_Verify 0
          else if r_version new <? r_version cur then Fail E_Older 0
          else if r_version new =? r_version cur then Stop
          else Hop new
      | _ => Fail E_Parse 0
      end
  end.

Definition next (cfg : config) (srv : server) (cur : root) : answer :=
  read_answer cur (fetch srv (root_json (r_version cur + 1)) (c_max_root_size cfg) None).

Lemma root_walk_step fx f cfg srv orig cur w :
  root_walk fx (S f) cfg srv orig cur w
  = if r_version cur <? update_limit fx orig (c_max_root_updates cfg) then
      match next cfg srv cur with
      | Hop new => root_walk fx f cfg srv orig new (logged w (root_json (r_version cur + 1)))
      | Stop => (Ok cur, logged w (root_json (r_version cur + 1)))
      | Fail c a => (Err c a, logged w (root_json (r_version cur + 1)))
      end
    else (Err E_MaxUpdates 0, w).
Proof.
  cbn [root_walk]. unfold next, read_answer. destruct (r_version cur <? update_limit fx orig (c_max_root_updates cfg)); [|reflexivity].
  destruct (fetch srv (root_json (r_version cur + 1)) (c_max_root_size cfg) None) as [file|sub].
  - destruct (f_body file) as [|new| | |]; try reflexivity.
    destruct (negb (root_verify cur 0 (r_sigs new))); [reflexivity|].
    destruct (negb (root_verify new 0 (r_sigs new))); [reflexivity|].
    destruct (r_version new <? r_version cur); [reflexivity|]. destruct (r_version new =? r_version cur); reflexivity.
  - destruct ((sub =? 0) || (sub =? 1) || (sub =? 5)); reflexivity.
Qed.

(* the walk reads nothing of the world and adds only to its log; [final_root] runs it from the empty world *)
Lemma root_walk_world fx fuel cfg srv orig : forall cur w,
  root_walk fx fuel cfg srv orig cur w
  = let (res, w0) := root_walk fx fuel cfg srv orig cur (world0 store0 None) in (res, logs w (w_log w0)).
Proof.
  induction fuel as [|f IH]; intros cur w; [cbn; rewrite logs_nil; reflexivity|]. rewrite !root_walk_step.
  destruct (r_version cur <? update_limit fx orig (c_max_root_updates cfg)); [|cbn; rewrite logs_nil; reflexivity].
  destruct (next cfg srv cur) as [new| |c a]; try reflexivity.
  rewrite (IH new (logged w _)), (IH new (logged (world0 store0 None) _)).
  destruct (root_walk fx f cfg srv orig new (world0 store0 None)) as [res w0]. rewrite logs_logged. reflexivity.
Qed.

Lemma root_walk_store fx fuel cfg srv orig cur w r w' :
  root_walk fx fuel cfg srv orig cur w = (r, w') ->
  w_store w' = w_store w /\ w_fault w' = w_fault w /\ w_ops w' = w_ops w.
Proof.
  rewrite root_walk_world. destruct (root_walk _ _ _ _ _ _ (world0 store0 None)). intros [= _ <-]. auto.
Qed.

Lemma final_root_of_walk fx c r0 r w w1 :
  cy_shipped c = CRoot r0 -> root_verify r0 0 (r_sigs r0) = true ->
  root_walk fx (c_fuel (cy_cfg c)) (cy_cfg c) (cy_srv c) (r_version r0) r0 w = (Ok r, w1) ->
  final_root fx c = Some r.
Proof.
  intros Hs Hv. unfold final_root. rewrite Hs, Hv, root_walk_world.
  destruct (root_walk _ _ _ _ _ _ (world0 store0 None)). intros [= -> _]. reflexivity.
Qed.

Definition hop (cfg : config) (srv : server) (cur new : root) : Prop :=
  exists file, fetch srv (root_json (r_version cur + 1)) (c_max_root_size cfg) None = FOk file
               /\ f_body file = CRoot new
               /\ root_verify cur 0 (r_sigs new) = true
               /\ root_verify new 0 (r_sigs new) = true
               /\ r_version cur < r_version new.

Fixpoint path (cfg : config) (srv : server) (cur : root) (l : list root) : Prop :=
  match l with
  | [] => True
  | x :: r => hop cfg srv cur x /\ path cfg srv x r
  end.

Definition stopped (cfg : config) (srv : server) (r : root) : Prop :=
  match fetch srv (root_json (r_version r + 1)) (c_max_root_size cfg) None with
  | FErr sub => sub = 0 \/ sub = 1 \/ sub = 5
  | FOk file => exists new, f_body file = CRoot new /\ root_verify r 0 (r_sigs new) = true
                            /\ root_verify new 0 (r_sigs new) = true /\ r_version new = r_version r
  end.

Definition last_root (cur : root) (l : list root) : root := last l cur.

Lemma next_hop cfg srv cur new : next cfg srv cur = Hop new <-> hop cfg srv cur new.
Proof.
  unfold next, read_answer, hop. split.
  - destruct (fetch srv _ _ None) as [file|sub]; [|destruct ((sub =? 0) || (sub =? 1) || (sub =? 5)); discriminate].
    destruct (f_body file) as [|new'| | |] eqn:Hb; try discriminate.
    destruct (root_verify cur 0 (r_sigs new')) eqn:V1; [|discriminate].
    destruct (root_verify new' 0 (r_sigs new')) eqn:V2; [|discriminate]. cbn [negb].
    destruct (r_version new' <? r_version cur) eqn:Lt; [discriminate|].
    destruct (r_version new' =? r_version cur) eqn:Eq; [discriminate|].
    intros [= <-]. exists file. repeat split; auto. lia.
  - intros (file & -> & -> & -> & -> & Hlt). cbn [negb].
    rewrite (proj2 (N.ltb_ge _ _)), (proj2 (N.eqb_neq _ _)) by lia. reflexivity.
Qed.

Lemma next_stop cfg srv cur : next cfg srv cur = Stop <-> stopped cfg srv cur.
Proof.
  unfold next, read_answer, stopped. destruct (fetch srv _ _ None) as [file|sub].
  - split.
    + destruct (f_body file) as [|new| | |]; try discriminate.
      destruct (root_verify cur 0 (r_sigs new)) eqn:V1; [|discriminate].
      destruct (root_verify new 0 (r_sigs new)) eqn:V2; [|discriminate]. cbn [negb].
      destruct (r_version new <? r_version cur); [discriminate|].
      destruct (r_version new =? r_version cur) eqn:Ev; [|discriminate].
      intros _. exists new. repeat split; auto. lia.
    + intros (new & -> & -> & -> & Ev). cbn [negb]. rewrite Ev, N.ltb_irrefl, N.eqb_refl. reflexivity.
  - destruct ((sub =? 0) || (sub =? 1) || (sub =? 5)) eqn:E; split; intro H; try discriminate; try reflexivity; lia.
Qed.

Lemma next_fail cfg srv cur c a : next cfg srv cur = Fail c a -> In c [E_Transport; E_Parse; E_Verify; E_Older].
Proof.
  unfold next, read_answer. destruct (fetch srv _ _ None) as [file|sub].
  - destruct (f_body file) as [|new| | |]; try (intros [= <- _]; cbn; auto 7).
    destruct (negb (root_verify cur 0 (r_sigs new))); [intros [= <- _]; cbn; auto 7|].
    destruct (negb (root_verify new 0 (r_sigs new))); [intros [= <- _]; cbn; auto 7|].
    destruct (r_version new <? r_version cur); [intros [= <- _]; cbn; auto 7|].
    destruct (r_version new =? r_version cur); discriminate.
  - destruct ((sub =? 0) || (sub =? 1) || (sub =? 5)); [discriminate|intros [= <- _]; cbn; auto].
Qed.

Lemma hop_version cfg srv cur new : hop cfg srv cur new -> r_version cur < r_version new.
Proof. intros (file & _ & _ & _ & _ & H). exact H. Qed.

Lemma last_root_cons cur x l : last_root cur (x :: l) = last_root x l.
Proof.
  unfold last_root. revert cur x. induction l as [|y l IH]; intros cur x; [reflexivity|].
  change (last (y :: l) cur = last (y :: l) x). rewrite (IH cur y), (IH x y). reflexivity.
Qed.

Lemma path_versions cfg srv : forall l cur, path cfg srv cur l -> r_version cur <= r_version (last_root cur l).
Proof.
  induction l as [|x l IH]; intros cur Hp; [cbn; lia|].
  destruct Hp as [Hh Hp]. apply hop_version in Hh. specialize (IH x Hp). rewrite last_root_cons. lia.
Qed.

Lemma path_last_verified cfg srv : forall l cur, path cfg srv cur l -> l <> [] ->
  root_verify (last_root cur l) 0 (r_sigs (last_root cur l)) = true.
Proof.
  induction l as [|x l IH]; intros cur Hp Hne; [contradiction|].
  destruct Hp as [(file & _ & _ & _ & Vself & _) Hp]. rewrite last_root_cons.
  destruct l as [|y l]; [exact Vself|]. apply IH; [exact Hp|discriminate].
Qed.

Lemma root_walk_ok fx fuel cfg srv orig : forall cur w r w',
  root_walk fx fuel cfg srv orig cur w = (Ok r, w') ->
  exists l, path cfg srv cur l /\ r = last_root cur l /\ stopped cfg srv r
            /\ w_log w' = w_log w ++ map (fun x => root_json (r_version x + 1)) (cur :: l)
            /\ r_version r < update_limit fx orig (c_max_root_updates cfg)
            /\ (length l < fuel)%nat.
Proof.
  induction fuel as [|f IH]; intros cur w r w' H; [discriminate|]. rewrite root_walk_step in H.
  destruct (r_version cur <? update_limit fx orig (c_max_root_updates cfg)) eqn:Hl; [|discriminate].
  destruct (next cfg srv cur) as [new| |c a] eqn:Hn; [| |discriminate].
  - apply next_hop in Hn. apply IH in H as (l & Hp & Hr & Hs & Hlog & Hlim & Hlen).
    exists (new :: l). rewrite last_root_cons. cbn [path length].
    split; [exact (conj Hn Hp)|]. split; [exact Hr|]. split; [exact Hs|]. split; [|split; [exact Hlim|]].
    + rewrite Hlog, logged_log. cbn [map]. rewrite <- app_assoc. reflexivity.
    + apply -> Nat.succ_lt_mono. exact Hlen.
  - apply next_stop in Hn. injection H as <- <-. exists []. repeat split; [exact Hn|lia|apply Nat.lt_0_succ].
Qed.

Lemma root_walk_complete fx cfg srv orig : forall l fuel cur w,
  path cfg srv cur l -> stopped cfg srv (last_root cur l) ->
  (length l < fuel)%nat ->
  r_version (last_root cur l) < update_limit fx orig (c_max_root_updates cfg) ->
  exists w', root_walk fx fuel cfg srv orig cur w = (Ok (last_root cur l), w').
Proof.
  induction l as [|x l IH]; intros fuel cur w Hp Hs Hf Hl; (destruct fuel as [|f]; [inversion Hf|]); rewrite root_walk_step.
  - cbn [last_root last] in *. rewrite (proj2 (N.ltb_lt _ _) Hl), (proj2 (next_stop _ _ _) Hs). eexists. reflexivity.
  - rewrite last_root_cons in *. destruct Hp as [Hh Hp].
    pose proof (hop_version _ _ _ _ Hh) as Hv. pose proof (path_versions _ _ _ _ Hp) as Hle.
    rewrite (proj2 (N.ltb_lt _ _)) by lia. rewrite (proj2 (next_hop _ _ _ _) Hh).
    apply IH; [exact Hp|exact Hs|apply Nat.succ_lt_mono; exact Hf|exact Hl].
Qed.

Lemma root_walk_requests fx fuel cfg srv orig : forall cur w res w',
  root_walk fx fuel cfg srv orig cur w = (res, w') ->
  exists names, w_log w' = w_log w ++ names
    /\ N.of_nat (length names) <= update_limit fx orig (c_max_root_updates cfg) - r_version cur
    /\ Forall (fun n => exists v, n = root_json v) names.
Proof.
  induction fuel as [|f IH]; intros cur w res w' H.
  { injection H as _ <-. exists []. rewrite app_nil_r. repeat split; [cbn; lia|constructor]. }
  rewrite root_walk_step in H.
  destruct (r_version cur <? update_limit fx orig (c_max_root_updates cfg)) eqn:Hl.
  2:{ injection H as _ <-. exists []. rewrite app_nil_r. repeat split; [cbn; lia|constructor]. }
  set (nm := root_json (r_version cur + 1)) in *.
  (* a walk that ends with this request *)
  assert (Last : forall res', (res', logged w nm) = (res, w') ->
     exists names, w_log w' = w_log w ++ names
       /\ N.of_nat (length names) <= update_limit fx orig (c_max_root_updates cfg) - r_version cur
       /\ Forall (fun n => exists v, n = root_json v) names).
  { intros res' [= _ <-]. exists [nm]. repeat split; [cbn [length]; lia|].
    constructor; [eexists; reflexivity|constructor]. }
  destruct (next cfg srv cur) as [new| |c a] eqn:Hn; [|exact (Last _ H)..].
  apply next_hop, hop_version in Hn. apply IH in H as (names & Hlog & Hlen & Hall).
  exists (nm :: names). rewrite Hlog, logged_log, <- app_assoc. repeat split.
  - cbn [length]. lia.
  - constructor; [eexists; reflexivity|exact Hall].
Qed.

Lemma update_limit_bound fx orig max : update_limit fx orig max - orig <= max.
Proof.
  unfold update_limit, u64max. destruct (fx_saturating fx); [lia|].
  pose proof (N.mod_le (orig + max) (18446744073709551615 + 1)). lia.
Qed.

Lemma update_limit_mono fx a b max v : fx_saturating fx = true ->
  a <= b -> v < update_limit fx a max -> v < update_limit fx b max.
Proof. unfold update_limit, u64max. intros ->. lia. Qed.

Definition walk_code (c : N) : Prop :=
  In c [E_OutOfFuel; E_MaxUpdates; E_Transport; E_Parse; E_Verify; E_Older].

Lemma root_walk_code fx fuel cfg srv orig : forall cur w c a w',
  root_walk fx fuel cfg srv orig cur w = (Err c a, w') -> walk_code c.
Proof.
  induction fuel as [|f IH]; intros cur w c a w' H; [injection H as <- _ _; cbn; auto|]. rewrite root_walk_step in H.
  destruct (r_version cur <? update_limit fx orig (c_max_root_updates cfg)); [|injection H as <- _ _; cbn; auto].
  destruct (next cfg srv cur) as [new| |c1 a1] eqn:Hn; [exact (IH _ _ _ _ _ H)|discriminate|].
  injection H as <- _ _. right. right. exact (next_fail _ _ _ _ _ Hn).
Qed.

(* the stores step 1.9 can leave behind when the online keys were rotated: timestamp.json and
   snapshot.json each kept or removed *)
Definition removed (s s' : store) : Prop :=
  exists s1, (s1 = s \/ s1 = upd_ts None s) /\ (s' = s1 \/ s' = upd_snap None s1).

Lemma removed_refl s : removed s s.
Proof. exists s. auto. Qed.

Definition online_kept_or_cleared (s s' : store) : Prop :=
  st_tgt s' = st_tgt s /\ (st_ts s' = st_ts s \/ st_ts s' = None) /\ (st_snap s' = st_snap s \/ st_snap s' = None).

Lemma removed_fields s s' : removed s s' ->
  st_root s' = st_root s /\ st_time s' = st_time s /\ online_kept_or_cleared s s'.
Proof. intros (s1 & [->| ->] & [->| ->]); repeat split; auto. Qed.

Lemma rm_ts_snap_inv fx w r w' : rm_ts_snap fx w = (r, w') ->
  w_log w' = w_log w /\ w_fault w' = w_fault w /\ removed (w_store w) (w_store w') /\
  match r with
  | Ok _ => w_store w' = upd_snap None (upd_ts None (w_store w))
  | Err c a => ds_code c
  end.
Proof.
  unfold rm_ts_snap. intro H.
  destruct (ds_op fx w (upd_ts None) (upd_ts None)) as [r1 w1] eqn:E1.
  apply ds_op_inv in E1 as (L1 & F1 & W1 & R1).
  assert (S1 : w_store w1 = w_store w \/ w_store w1 = upd_ts None (w_store w)).
  { destruct W1 as [?|[?|[_ ?]]]; auto. }
  (* the removal of snapshot.json, from the world [w1] that the removal of timestamp.json left *)
  assert (Snap : forall r2 w2, ds_op fx w1 (upd_snap None) (upd_snap None) = (r2, w2) ->
            w_log w2 = w_log w /\ w_fault w2 = w_fault w /\ removed (w_store w) (w_store w2)
            /\ match r2 with Ok _ => w_store w2 = upd_snap None (w_store w1) | Err c a => ds_code c end).
  { intros r2 w2 E2. apply ds_op_inv in E2 as (L2 & F2 & W2 & R2).
    split; [congruence|]. split; [congruence|]. split.
    - exists (w_store w1). split; [exact S1|]. destruct W2 as [?|[?|[_ ?]]]; auto.
    - destruct r2; [exact R2|apply R2]. }
  destruct r1 as [u|c a].
  - apply Snap in H as (L & F & Rm & R). rewrite R1 in R. auto.
  - destruct R1 as (D & _). destruct (c =? E_Killed).
    + injection H as <- <-. repeat split; auto. exists (w_store w1). auto.
    + destruct (ds_op fx w1 (upd_snap None) (upd_snap None)) as [r2 w2].
      destruct (Snap r2 w2 eq_refl) as (L & F & Rm & R).
      destruct r2 as [u2|c2 a2]; [|destruct (c2 =? E_Killed)]; injection H as <- <-; auto.
Qed.

(* [s1]: the store after the expiry check of the final root; [s2]: after the removal of the online
   documents, which happens only on rotation; then the root is recorded (after the repair of F5) *)
Lemma finish_root_inv fx cfg now ref r w res w' : finish_root fx cfg now ref r w = (res, w') ->
  w_log w' = w_log w /\ w_fault w' = w_fault w /\
  exists s1 s2, timed fx now (w_store w) s1
    /\ (if rotated ref r then removed s1 s2 else s2 = s1)
    /\ (if fx_prev_root fx then wrote fx (upd_root (Some (SDoc r))) (upd_root (Some SCorrupt)) s2 (w_store w')
        else w_store w' = s2)
    /\ match res with
       | Ok x => x = r /\ (c_enforce cfg = true -> (now <= r_expires r)%Z /\ time_back now (w_store w) = false)
                 /\ (rotated ref r = true -> s2 = upd_snap None (upd_ts None s1))
                 /\ (fx_prev_root fx = true -> w_store w' = upd_root (Some (SDoc r)) s2)
       | Err c a => stop_code cfg c
       end.
Proof.
  unfold finish_root. intro H.
  destruct (check_expired fx cfg now (r_expires r) 0 w) as [[u|c a] w2] eqn:E1;
    apply check_expired_inv in E1 as (L1 & F1 & T1 & R1).
  2:{ (* expired, or the clock went back: nothing else was touched *)
      injection H as <- <-. split; [exact L1|]. split; [exact F1|]. exists (w_store w2), (w_store w2).
      split; [exact T1|]. split; [destruct (rotated ref r); [apply removed_refl|reflexivity]|].
      split; [destruct (fx_prev_root fx); [left|]; reflexivity|]. eapply check_expired_stop, R1. }
  destruct (if rotated ref r then rm_ts_snap fx w2 else (Ok tt, w2)) as [rr w3] eqn:E2.
  assert (P2 : w_log w3 = w_log w2 /\ w_fault w3 = w_fault w2
               /\ (if rotated ref r then removed (w_store w2) (w_store w3) else w_store w3 = w_store w2)
               /\ match rr with
                  | Ok _ => rotated ref r = true -> w_store w3 = upd_snap None (upd_ts None (w_store w2))
                  | Err c a => ds_code c
                  end).
  { destruct (rotated ref r).
    - apply rm_ts_snap_inv in E2 as (L & F & Rm & R). repeat split; auto. destruct rr; auto.
    - injection E2 as <- <-. repeat split; discriminate. }
  destruct P2 as (L2 & F2 & S2 & R2).
  destruct rr as [u2|c a].
  2:{ (* a removal failed: the root is not recorded *)
      injection H as <- <-. split; [congruence|]. split; [congruence|]. exists (w_store w2), (w_store w3).
      split; [exact T1|]. split; [exact S2|]. split; [destruct (fx_prev_root fx); [left|]; reflexivity|].
      apply ds_code_stop, R2. }
  destruct (fx_prev_root fx).
  - (* the record of the root, made or failed *)
    destruct (ds_op fx w3 (upd_root (Some (SDoc r))) (upd_root (Some SCorrupt))) as [r4 w4] eqn:E4.
    apply ds_op_inv in E4 as (L4 & F4 & W4 & R4).
    assert (res = match r4 with Ok _ => Ok r | Err c a => Err c a end /\ w' = w4) as [-> ->]
      by (destruct r4; injection H as <- <-; auto).
    split; [congruence|]. split; [congruence|]. exists (w_store w2), (w_store w3).
    split; [exact T1|]. split; [exact S2|]. split; [exact W4|].
    destruct r4 as [u4|c a]; [auto|apply ds_code_stop, R4].
  - injection H as <- <-. split; [congruence|]. split; [congruence|]. exists (w_store w2), (w_store w3).
    split; [exact T1|]. split; [exact S2|]. split; [reflexivity|]. split; [reflexivity|].
    split; [exact R1|]. split; [exact R2|discriminate].
Qed.

Lemma finish_root_ok fx cfg now ref r w x w' : finish_root fx cfg now ref r w = (Ok x, w') ->
  x = r
  /\ (c_enforce cfg = true -> (now <= r_expires r)%Z /\ time_back now (w_store w) = false)
  /\ (rotated ref r = true -> st_ts (w_store w') = None /\ st_snap (w_store w') = None)
  /\ (fx_prev_root fx = true -> st_root (w_store w') = Some (SDoc r)).
Proof.
  intro H. apply finish_root_inv in H as (_ & _ & s1 & s2 & _ & _ & Wr & -> & Fresh & Cleared & Recorded).
  split; [reflexivity|]. split; [exact Fresh|]. split.
  - intro Hrot. destruct (fx_prev_root fx); [rewrite (Recorded eq_refl)|rewrite Wr]; rewrite (Cleared Hrot); auto.
  - intro Hp. rewrite (Recorded Hp). reflexivity.
Qed.

Lemma finish_root_err fx cfg now ref r w c a w' : finish_root fx cfg now ref r w = (Err c a, w') -> stop_code cfg c.
Proof. intro H. apply finish_root_inv in H as (_ & _ & s1 & s2 & _ & _ & _ & Sc). exact Sc. Qed.

(* the common end of the three loaders: the expiry check, then the write of the document. The text is that of
   Model/Client.v with the continuation [k] left open; the loaders are equal to it by conversion, which is how the
   lemmas about it are applied to them *)
Definition check_put {A} (fx : fixes) (cfg : config) (now e : Z) (role : N) (full trunc : store -> store)
           (k : world -> res A * world) (w1 : world) : res A * world :=
  match check_expired fx cfg now e role w1 with
  | (Err c a, w2) => (Err c a, w2)
  | (Ok _, w2) => match ds_op fx w2 full trunc with
                  | (Err c a, w3) => (Err c a, w3)
                  | (Ok _, w3) => k w3
                  end
  end.

Lemma check_put_inv {A} fx cfg now e role full trunc (k : world -> res A * world) w1 res w' :
  check_put fx cfg now e role full trunc k w1 = (res, w') ->
  (exists c a, res = Err c a /\ stop_code cfg c /\ c <> E_Older /\ w_log w' = w_log w1
               /\ w_fault w' = w_fault w1 /\ timed fx now (w_store w1) (w_store w'))
  \/ exists s1, (c_enforce cfg = true -> (now <= e)%Z) /\ timed fx now (w_store w1) s1 /\
       ((exists c a, res = Err c a /\ ds_code c /\ w_log w' = w_log w1 /\ w_fault w' = w_fault w1
                     /\ wrote fx full trunc s1 (w_store w'))
        \/ exists w3, k w3 = (res, w') /\ w_store w3 = full s1 /\ w_log w3 = w_log w1
                      /\ w_fault w3 = w_fault w1).
Proof.
  unfold check_put. intro H.
  destruct (check_expired fx cfg now e role w1) as [[u|c a] w2] eqn:E1;
    apply check_expired_inv in E1 as (L1 & F1 & T1 & R1).
  2:{ injection H as <- <-. left. exists c, a. repeat split; auto; [eapply check_expired_stop, R1|].
      destruct R1 as (_ & [(-> & _)|[->|[->| ->]]]); discriminate. }
  right. exists (w_store w2). split; [intro He; apply (R1 He)|]. split; [exact T1|].
  destruct (ds_op fx w2 full trunc) as [[u3|c a] w3] eqn:E3; apply ds_op_inv in E3 as (L3 & F3 & W3 & R3).
  - right. exists w3. repeat split; auto; congruence.
  - injection H as <- <-. left. exists c, a. repeat split; auto; [apply R3|congruence|congruence].
Qed.

(* how the load of one document ends: stopped with the store changed at most in its recorded time, or
   with a document [d] that satisfies [acc] and whose write was attempted *)
Definition load_doc {D} (fx : fixes) (cfg : config) (now : Z) (put : option (stored D) -> store -> store)
           (nothing_stored : Prop) (acc : D -> Prop) (s : store) (res : res D) (s' : store) : Prop :=
  (exists c a, res = Err c a /\ stop_code cfg c /\ (c = E_Older -> ~ nothing_stored) /\ timed fx now s s')
  \/ exists d s1, acc d /\ timed fx now s s1 /\ wrote fx (put (Some (SDoc d))) (put (Some SCorrupt)) s1 s'
       /\ match res with Ok x => x = d /\ s' = put (Some (SDoc d)) s1 | Err c a => ds_code c end.

Lemma load_doc_not_older {D} fx cfg now (put : option (stored D) -> store -> store) (ns : Prop) acc s a s' :
  ns -> ~ load_doc fx cfg now put ns acc s (Err E_Older a) s'.
Proof.
  intros Hn [(c & a0 & [= <- _] & _ & Ho & _)|(d & s1 & _ & _ & _ & [K|K])];
    [exact (Ho eq_refl Hn)|discriminate|discriminate].
Qed.

Lemma load_doc_ok {D} fx cfg now (put : option (stored D) -> store -> store) ns acc s d s' :
  load_doc fx cfg now put ns acc s (Ok d) s' -> acc d /\ exists s1, timed fx now s s1 /\ s' = put (Some (SDoc d)) s1.
Proof.
  intros [(c & a & E & _)|(d' & s1 & Acc & T & _ & -> & ->)]; [discriminate|]. split; [exact Acc|]. exists s1. auto.
Qed.

Lemma load_doc_err {D} fx cfg now (put : option (stored D) -> store -> store) ns acc s c a s' :
  load_doc fx cfg now put ns acc s (Err c a) s' -> stop_code cfg c.
Proof. intros [(c0 & a0 & [= <- _] & Sc & _)|(d & s1 & _ & _ & _ & K)]; [exact Sc|exact (ds_code_stop _ _ K)]. Qed.
Arguments load_doc_ok {D fx cfg now put ns acc s d s'}.
Arguments load_doc_err {D fx cfg now put ns acc s c a s'}.

(* a loader that stops before the expiry check, having made its request *)
Lemma load_doc_refused {D} fx cfg now put ns acc (w : world) nm (c a : N) (res : res D) w' :
  In c [E_Transport; E_Parse; E_Verify; E_Older; E_MetaMissing; E_VersionMismatch; E_Killed; E_Datastore] ->
  (c = E_Older -> ~ ns) -> (Err c a, logged w nm) = (res, w') ->
  w_log w' = w_log w ++ [nm] /\ w_fault w' = w_fault w
  /\ load_doc fx cfg now put ns acc (w_store w) res (w_store w').
Proof.
  intros Hc Ho [= <- <-]. split; [reflexivity|]. split; [reflexivity|]. left. exists c, a.
  split; [reflexivity|]. split; [left; exact Hc|]. split; [exact Ho|apply timed_refl].
Qed.

(* a loader that gets as far as the expiry check with a document [d] *)
Lemma load_doc_checked {D} fx cfg now put ns (acc : D -> Prop) e role d (w : world) nm res w' :
  ((c_enforce cfg = true -> (now <= e)%Z) -> acc d) ->
  check_put fx cfg now e role (put (Some (SDoc d))) (put (Some SCorrupt)) (fun w3 => (Ok d, w3)) (logged w nm)
  = (res, w') ->
  w_log w' = w_log w ++ [nm] /\ w_fault w' = w_fault w
  /\ load_doc fx cfg now put ns acc (w_store w) res (w_store w').
Proof.
  intros Hacc H.
  apply check_put_inv in H as [(c & a & -> & Sc & NO & L & F & T)
                              |(s1 & Fr & T & [(c & a & -> & Dc & L & F & W)|(w3 & [= <- <-] & S3 & L & F)])].
  - split; [exact L|]. split; [exact F|]. left. exists c, a.
    split; [reflexivity|]. split; [exact Sc|]. split; [intro; contradiction|exact T].
  - split; [exact L|]. split; [exact F|]. right. exists d, s1. auto.
  - split; [exact L|]. split; [exact F|]. right. exists d, s1. repeat split; auto. right. left. exact S3.
Qed.

Definition ts_accepted (cfg : config) (r : root) (srv : server) (now : Z) (s : store) (ts : timestamp) : Prop :=
  (exists file, fetch srv name_timestamp (c_max_timestamp_size cfg) None = FOk file /\ f_body file = CTs ts)
  /\ root_verify r 3 (ts_sigs ts) = true
  /\ (forall old, st_ts s = Some (SDoc old) -> root_verify r 3 (ts_sigs old) = true ->
                  ts_version old <= ts_version ts)
  /\ (c_enforce cfg = true -> (now <= ts_expires ts)%Z).

Lemma ts_accepted_mono cfg r srv now s s' ts :
  (st_ts s' = st_ts s \/ st_ts s' = None) -> ts_accepted cfg r srv now s ts -> ts_accepted cfg r srv now s' ts.
Proof.
  intros H (A & B & C & D). repeat split; auto. intros old Ho. destruct H as [H|H]; rewrite H in Ho; [eauto|discriminate].
Qed.

(* a loader that stops with a code other than E_Older, read off the equation [H] *)
Local Ltac refused H := eapply load_doc_refused; [| |exact H]; [cbn; auto 7|discriminate].

Lemma load_timestamp_inv fx cfg r srv now w res w' :
  load_timestamp fx cfg r srv now w = (res, w') ->
  w_log w' = w_log w ++ [name_timestamp] /\ w_fault w' = w_fault w
  /\ load_doc fx cfg now upd_ts (st_ts (w_store w) = None) (ts_accepted cfg r srv now (w_store w))
            (w_store w) res (w_store w').
Proof.
  unfold load_timestamp. intro H.
  destruct (fetch srv name_timestamp (c_max_timestamp_size cfg) None) as [file|sub] eqn:Hf.
  2:{ refused H. }
  destruct (f_body file) as [| |ts| |] eqn:Hb;
    try (refused H).
  destruct (root_verify r 3 (ts_sigs ts)) eqn:V; cbn [negb] in H.
  2:{ refused H. }
  rewrite logged_store in H.
  destruct (match st_ts (w_store w) with
            | Some (SDoc old) => root_verify r 3 (ts_sigs old) && (ts_version ts <? ts_version old)
            | _ => false end) eqn:Old.
  { eapply load_doc_refused; [| |exact H]; [cbn; auto 7|]. intros _ N. rewrite N in Old. discriminate. }
  eapply load_doc_checked with (d := ts) (e := ts_expires ts) (role := 3); [|exact H].
  intro Fr. split; [exists file; auto|]. split; [exact V|]. split; [|exact Fr].
  intros old Ho Vo. rewrite Ho, Vo in Old. cbn [andb] in Old. lia.
Qed.

Lemma load_timestamp_ok fx cfg r srv now w ts w' : load_timestamp fx cfg r srv now w = (Ok ts, w') ->
  ts_accepted cfg r srv now (w_store w) ts
  /\ exists s1, timed fx now (w_store w) s1 /\ w_store w' = upd_ts (Some (SDoc ts)) s1.
Proof. intro H. apply load_timestamp_inv in H as (_ & _ & Ld). exact (load_doc_ok Ld). Qed.

Definition snap_rollback_ok (old sn : snapshot) : Prop :=
  sn_version old <= sn_version sn
  /\ (forall om, lookup name_targets (sn_meta old) = Some om ->
                 exists nm, lookup name_targets (sn_meta sn) = Some nm /\ m_version om <= m_version nm).

Definition snap_accepted (cfg : config) (r : root) (ts : timestamp) (srv : server) (now : Z) (s : store)
           (sn : snapshot) : Prop :=
  (exists m file,
      lookup name_snapshot (ts_meta ts) = Some m
      /\ fetch srv (versioned (r_cs r) (m_version m) name_snapshot)
               (opt_default (m_length m) (c_max_snapshot_size cfg)) (m_hash m) = FOk file
      /\ f_body file = CSnap sn /\ sn_version sn = m_version m)
  /\ root_verify r 1 (sn_sigs sn) = true
  /\ (forall old, st_snap s = Some (SDoc old) -> root_verify r 1 (sn_sigs old) = true -> snap_rollback_ok old sn)
  /\ (c_enforce cfg = true -> (now <= sn_expires sn)%Z).

Lemma snap_accepted_mono cfg r ts srv now s s' sn :
  (st_snap s' = st_snap s \/ st_snap s' = None) -> snap_accepted cfg r ts srv now s sn -> snap_accepted cfg r ts srv now s' sn.
Proof.
  intros H (A & B & C & D). split; [exact A|]. split; [exact B|]. split; [|exact D].
  intros old Ho. destruct H as [H|H]; rewrite H in Ho; [eauto|discriminate].
Qed.

Lemma load_snapshot_inv fx cfg r ts srv now w res w' :
  load_snapshot fx cfg r ts srv now w = (res, w') ->
  (lookup name_snapshot (ts_meta ts) = None /\ res = Err E_MetaMissing 1 /\ w' = w)
  \/ exists m, lookup name_snapshot (ts_meta ts) = Some m
       /\ w_log w' = w_log w ++ [versioned (r_cs r) (m_version m) name_snapshot] /\ w_fault w' = w_fault w
       /\ load_doc fx cfg now upd_snap (st_snap (w_store w) = None) (snap_accepted cfg r ts srv now (w_store w))
                 (w_store w) res (w_store w').
Proof.
  unfold load_snapshot. intro H.
  destruct (lookup name_snapshot (ts_meta ts)) as [m|] eqn:Hm; [|injection H as <- <-; auto].
  right. exists m. split; [reflexivity|].
  set (nm := versioned (r_cs r) (m_version m) name_snapshot) in *.
  destruct (fetch srv nm (opt_default (m_length m) (c_max_snapshot_size cfg)) (m_hash m)) as [file|sub] eqn:Hf.
  2:{ refused H. }
  destruct (f_body file) as [| | |sn|] eqn:Hb;
    try (refused H).
  destruct (sn_version sn =? m_version m) eqn:Ve; cbn [negb] in H.
  2:{ refused H. }
  destruct (root_verify r 1 (sn_sigs sn)) eqn:V; cbn [negb] in H.
  2:{ refused H. }
  rewrite logged_store in H.
  match type of H with context [match ?c with Ok _ => _ | Err _ _ => _ end] => destruct c as [u0|c0 a0] eqn:Chk end.
  2:{ assert ((c0 = E_Older \/ c0 = E_MetaMissing) /\ st_snap (w_store w) <> None) as [Hc Hs].
      { destruct (st_snap (w_store w)) as [[|old]|]; try discriminate. split; [|discriminate].
        destruct (root_verify r 1 (sn_sigs old)); [|discriminate].
        destruct (sn_version sn <? sn_version old); [injection Chk as <- _; auto|].
        destruct (lookup name_targets (sn_meta old)) as [om|]; [|discriminate].
        destruct (lookup name_targets (sn_meta sn)) as [nm'|]; [|injection Chk as <- _; auto].
        destruct (m_version nm' <? m_version om); [injection Chk as <- _; auto|discriminate]. }
      eapply load_doc_refused; [| |exact H]; [destruct Hc as [->| ->]; cbn; auto 7|auto]. }
  eapply load_doc_checked with (d := sn) (e := sn_expires sn) (role := 1); [|exact H].
  intro Fr. split; [exists m, file; repeat split; auto; apply N.eqb_eq, Ve|]. split; [exact V|]. split; [|exact Fr].
  intros old Ho Vo. rewrite Ho, Vo in Chk. unfold snap_rollback_ok.
  destruct (sn_version sn <? sn_version old) eqn:L; [discriminate|]. split; [lia|].
  intros om Hom. rewrite Hom in Chk.
  destruct (lookup name_targets (sn_meta sn)) as [nm'|]; [|discriminate].
  exists nm'. split; [reflexivity|]. destruct (m_version nm' <? m_version om) eqn:L2; [discriminate|lia].
Qed.

Lemma load_snapshot_ok fx cfg r ts srv now w sn w' : load_snapshot fx cfg r ts srv now w = (Ok sn, w') ->
  snap_accepted cfg r ts srv now (w_store w) sn
  /\ exists s1, timed fx now (w_store w) s1 /\ w_store w' = upd_snap (Some (SDoc sn)) s1.
Proof.
  intro H. apply load_snapshot_inv in H as [(_ & E & _)|(m & _ & _ & _ & Ld)]; [discriminate|].
  exact (load_doc_ok Ld).
Qed.

Lemma add_other_same_docs n s : same_docs s (add_other n s).
Proof. repeat split. Qed.

(* The two loops of load_delegations, one listed role at a time. *)
Definition deleg_codes : list N :=
  [E_NotConsistent; E_RoleNotInMeta; E_Transport; E_Parse; E_Verify; E_VersionMismatch; E_Killed; E_Datastore].

Section DelegStep.
  Variables (fx : fixes) (cfg : config) (srv : server) (snap : snapshot) (cs : bool) (lim : N).

  (* the first loop fetches the role [name]. The text is that of [fetch_level] in Model/Client.v with what follows
     the record of the file name left open as [k], so that [fetch_level_cons] holds by conversion *)
  Definition fetch_role {A} (dkeys : list N) (all : list (dhdr * option targets)) (anc : list bytes) (name : bytes)
             (k : targets -> world -> res A * world) (w : world) : res A * world :=
    if fx_ancestors fx && mem_bytes name anc then (Err E_NotConsistent 0, w)
    else
      match lookup (json_of name) (sn_meta snap) with
      | None => (Err E_RoleNotInMeta 0, w)
      | Some m =>
          let path := role_filename cs (m_version m) name in
          let w1 := logged w path in
          let limit := if fx_deleg_own_meta fx then opt_default (m_length m) (c_max_targets_size cfg) else lim in
          let hash := if fx_deleg_own_meta fx then m_hash m else None in
          match fetch srv path limit hash with
          | FErr sub => (Err E_Transport sub, w1)
          | FOk file =>
              match f_body file with
              | CTargets t =>
                  if negb (deleg_verify fx dkeys all name (tg_sigs t)) then (Err E_Verify 2, w1)
                  else if negb (tg_version t =? m_version m) then (Err E_VersionMismatch 2, w1)
                  else match ds_op fx w1 (add_other path) (add_other path) with
                       | (Err c a, w2) => (Err c a, w2)
                       | (Ok _, w2) => k t w2
                       end
              | _ => (Err E_Parse 2, w1)
              end
          end
      end.

  Lemma fetch_level_cons dkeys all anc h o rest acc w :
    fetch_level fx cfg srv snap cs lim dkeys all ((h, o) :: rest) anc acc w
    = fetch_role dkeys all anc (dh_name h)
        (fun t w2 => fetch_level fx cfg srv snap cs lim dkeys all rest anc (assoc_insert (dh_name h) t acc) w2) w.
  Proof. reflexivity. Qed.

  (* what the loop has checked of a role whose document [t] it keeps; the ancestor check is the repair of F3,
     the entry's own length (in place of [lim]) and digest that of F2 *)
  Definition role_fetched (dkeys : list N) (all : list (dhdr * option targets)) (anc : list bytes) (name : bytes)
             (t : targets) : Prop :=
    fx_ancestors fx && mem_bytes name anc = false
    /\ exists m file,
         lookup (json_of name) (sn_meta snap) = Some m
         /\ fetch srv (role_filename cs (m_version m) name)
                  (if fx_deleg_own_meta fx then opt_default (m_length m) (c_max_targets_size cfg) else lim)
                  (if fx_deleg_own_meta fx then m_hash m else None) = FOk file
         /\ f_body file = CTargets t
         /\ deleg_verify fx dkeys all name (tg_sigs t) = true
         /\ tg_version t = m_version m.

  Definition role_requested (name : bytes) (w w' : world) : Prop :=
    exists m, lookup (json_of name) (sn_meta snap) = Some m /\
      let p := role_filename cs (m_version m) name in
      w' = logged w p \/ exists r0, ds_op fx (logged w p) (add_other p) (add_other p) = (r0, w').

  Lemma fetch_role_inv {A} dkeys all anc name (k : targets -> world -> res A * world) w r w' :
    fetch_role dkeys all anc name k w = (r, w') ->
    (exists c a, r = Err c a /\ In c deleg_codes /\ (w' = w \/ role_requested name w w'))
    \/ exists t w2, role_fetched dkeys all anc name t /\ role_requested name w w2 /\ k t w2 = (r, w').
  Proof.
    unfold fetch_role. intro H.
    assert (Refuse : forall c a w1, (@Err A c a, w1) = (r, w') -> memN c deleg_codes = true ->
              w1 = w \/ role_requested name w w1 ->
              exists c a, r = Err c a /\ In c deleg_codes /\ (w' = w \/ role_requested name w w')).
    { intros c a w1 [= <- <-] Hc Hw. exists c, a. split; [reflexivity|]. split; [apply memN_In, Hc|exact Hw]. }
    destruct (fx_ancestors fx && mem_bytes name anc) eqn:Ha; [left; exact (Refuse _ _ _ H eq_refl (or_introl eq_refl))|].
    destruct (lookup (json_of name) (sn_meta snap)) as [m|] eqn:Hm; [|left; exact (Refuse _ _ _ H eq_refl (or_introl eq_refl))].
    cbv zeta in H. set (p := role_filename cs (m_version m) name) in *.
    assert (Req : role_requested name w (logged w p)) by (exists m; rewrite Hm; auto).
    destruct (fetch srv p _ _) as [file|sub] eqn:Hf; [|left; exact (Refuse _ _ _ H eq_refl (or_intror Req))].
    destruct (f_body file) as [| | | |t] eqn:Hb; try (left; exact (Refuse _ _ _ H eq_refl (or_intror Req))).
    destruct (deleg_verify fx dkeys all name (tg_sigs t)) eqn:Hv; [|left; exact (Refuse _ _ _ H eq_refl (or_intror Req))].
    destruct (tg_version t =? m_version m) eqn:Ev; [|left; exact (Refuse _ _ _ H eq_refl (or_intror Req))].
    cbn [negb] in H. destruct (ds_op fx (logged w p) (add_other p) (add_other p)) as [[u|c a] w2] eqn:Eo.
    - right. exists t, w2. split; [|split; [exists m; rewrite Hm; eauto|exact H]].
      split; [exact Ha|]. exists m, file. apply N.eqb_eq in Ev. auto.
    - left. pose proof (ds_op_inv _ _ _ _ _ _ Eo) as (_ & _ & _ & Dc & _).
      refine (Refuse _ _ _ H _ _); [destruct Dc as [->| ->]; reflexivity|]. right. exists m. rewrite Hm. eauto.
  Qed.

  (* the second loop completes the document [t] it has for a role by loading what the role delegates to, with
     [anc] the ancestors of those roles; [load_targets] does the same with targets.json, see [attach] *)
  Definition complete_role (rec : list N -> list (dhdr * option targets) -> list bytes -> world
                                  -> res (list (dhdr * option targets)) * world)
             (anc : list bytes) (t : targets) (w : world) : res targets * world :=
    if tg_has_deleg t then
      match rec (tg_dkeys t) (tg_roles t) anc w with
      | (Ok rs, w') => (Ok (tg_set_roles t rs), w')
      | (Err c a, w') => (Err c a, w')
      end
    else (Ok t, w).

  Lemma second_loop_cons rec anc h o rest remaining w :
    second_loop rec anc ((h, o) :: rest) remaining w
    = match lookup (dh_name h) remaining with
      | None => (Err E_NotConsistent 0, w)
      | Some t =>
          match complete_role rec (anc ++ [dh_name h]) t w with
          | (Err c a, w1) => (Err c a, w1)
          | (Ok t', w1) =>
              match second_loop rec anc rest (assoc_remove (dh_name h) remaining) w1 with
              | (Ok rs, w2) => (Ok ((h, Some t') :: rs), w2)
              | (Err c a, w2) => (Err c a, w2)
              end
          end
      end.
  Proof. reflexivity. Qed.

  Lemma complete_role_inv rec anc t w rt w1 : complete_role rec anc t w = (rt, w1) ->
    (tg_has_deleg t = false /\ rt = Ok t /\ w1 = w)
    \/ (tg_has_deleg t = true /\ exists rd,
          rec (tg_dkeys t) (tg_roles t) anc w = (rd, w1)
          /\ rt = match rd with Ok rs => Ok (tg_set_roles t rs) | Err c a => Err c a end).
  Proof.
    unfold complete_role. intro H. destruct (tg_has_deleg t); [right|left; injection H as <- <-; auto].
    split; [reflexivity|]. destruct (rec (tg_dkeys t) (tg_roles t) anc w) as [[rs|c a] w2]; injection H as <- <-; eauto.
  Qed.
End DelegStep.

(* The three loops of load_delegations (fetch_level, second_loop over an arbitrary [rec], load_delegs on fuel)
   change the world only by logging the request for a role listed in the snapshot and by recording the fetched
   file in the datastore, and fail only with the codes of [deleg_codes] (and E_OutOfFuel, in the model): they
   preserve every preorder [R] on worlds that those two steps preserve, and their codes satisfy every [E] that
   holds of that list. *)
Definition err_in {A} (E : N -> Prop) (r : res A) : Prop :=
  match r with Err c _ => E c | Ok _ => True end.

Section DelegSat.
  Variables (fx : fixes) (cfg : config) (srv : server) (snap : snapshot) (cs : bool) (lim : N).
  Variable R : world -> world -> Prop.
  Variable E : N -> Prop.
  Hypothesis Rrefl : forall w, R w w.
  Hypothesis Rtrans : forall a b c, R a b -> R b c -> R a c.
  Hypothesis Rreq : forall w name m, lookup (json_of name) (sn_meta snap) = Some m ->
                                     R w (logged w (role_filename cs (m_version m) name)).
  Hypothesis Rop : forall w p r w', ds_op fx w (add_other p) (add_other p) = (r, w') -> R w w'.
  Hypothesis Ecodes : forall c, In c deleg_codes -> E c.

  Lemma role_requested_sat name w w' : role_requested fx snap cs name w w' -> R w w'.
  Proof.
    intros (m & Hm & [->|(r0 & Eo)]); [exact (Rreq w _ _ Hm)|exact (Rtrans _ _ _ (Rreq w _ _ Hm) (Rop _ _ _ _ Eo))].
  Qed.

  Lemma fetch_level_sat dkeys all anc : forall todo acc w r w',
    fetch_level fx cfg srv snap cs lim dkeys all todo anc acc w = (r, w') -> R w w' /\ err_in E r.
  Proof.
    induction todo as [|[h o] rest IH]; intros acc w r w' H.
    { injection H as <- <-. split; [apply Rrefl|exact I]. }
    rewrite fetch_level_cons in H. apply fetch_role_inv in H as [(c & a & -> & Hc & Hw)|(t & w2 & _ & Hw & H)].
    - split; [|exact (Ecodes _ Hc)]. destruct Hw as [->|Hw]; [apply Rrefl|exact (role_requested_sat _ _ _ Hw)].
    - apply IH in H as [R3 He]. split; [exact (Rtrans _ _ _ (role_requested_sat _ _ _ Hw) R3)|exact He].
  Qed.

  Definition rec_sat (rec : list N -> list (dhdr * option targets) -> list bytes -> world
                           -> res (list (dhdr * option targets)) * world) : Prop :=
    forall dk rs anc w r w', rec dk rs anc w = (r, w') -> R w w' /\ err_in E r.

  Lemma complete_role_sat rec : rec_sat rec -> forall anc t w r w',
    complete_role rec anc t w = (r, w') -> R w w' /\ err_in E r.
  Proof.
    intros Hrec anc t w r w' H. apply complete_role_inv in H as [(_ & -> & ->)|(_ & rd & E1 & ->)].
    - split; [apply Rrefl|exact I].
    - apply Hrec in E1 as [R1 He]. split; [exact R1|destruct rd; [exact I|exact He]].
  Qed.

  Lemma second_loop_sat rec : rec_sat rec -> forall todo anc remaining w r w',
    second_loop rec anc todo remaining w = (r, w') -> R w w' /\ err_in E r.
  Proof.
    intros Hrec. induction todo as [|[h o] rest IH]; intros anc remaining w r w' H.
    { injection H as <- <-. split; [apply Rrefl|exact I]. }
    rewrite second_loop_cons in H. destruct (lookup (dh_name h) remaining) as [t|].
    2:{ injection H as <- <-. split; [apply Rrefl|apply Ecodes; left; reflexivity]. }
    destruct (complete_role rec (anc ++ [dh_name h]) t w) as [[t'|c a] w1] eqn:E1;
      apply (complete_role_sat _ Hrec) in E1 as [R1 He1].
    2:{ injection H as <- <-. split; [exact R1|exact He1]. }
    destruct (second_loop rec anc rest (assoc_remove (dh_name h) remaining) w1) as [[rs2|c a] w2] eqn:E2;
      apply IH in E2 as [R2 He2]; injection H as <- <-; (split; [exact (Rtrans _ _ _ R1 R2)|exact He2]).
  Qed.

  Lemma load_delegs_sat : E E_OutOfFuel -> forall fuel, rec_sat (load_delegs fx cfg srv snap cs lim fuel).
  Proof.
    intros Hoof. induction fuel as [|f IH]; intros dk rs anc w r w' H; cbn [load_delegs] in H.
    { injection H as <- <-. split; [apply Rrefl|exact Hoof]. }
    destruct (fetch_level fx cfg srv snap cs lim dk rs rs anc [] w) as [[fetched|c a] w1] eqn:E1;
      apply fetch_level_sat in E1 as [R1 He].
    - apply (second_loop_sat _ IH) in H as [R2 He2]. split; [exact (Rtrans _ _ _ R1 R2)|exact He2].
    - injection H as <- <-. split; [exact R1|exact He].
  Qed.
End DelegSat.

Definition tgt_accepted (cfg : config) (r : root) (sn : snapshot) (srv : server) (now : Z) (s : store)
           (t0 : targets) : Prop :=
  (exists m file,
      lookup name_targets (sn_meta sn) = Some m
      /\ fetch srv (versioned (r_cs r) (m_version m) name_targets)
               (opt_default (m_length m) (c_max_targets_size cfg)) (m_hash m) = FOk file
      /\ f_body file = CTargets t0 /\ tg_version t0 = m_version m)
  /\ root_verify r 2 (tg_sigs t0) = true
  /\ (forall old, st_tgt s = Some (SDoc old) -> root_verify r 2 (tg_sigs old) = true ->
                  tg_version old <= tg_version t0)
  /\ (c_enforce cfg = true -> (now <= tg_expires t0)%Z).

Lemma tgt_accepted_mono cfg r sn srv now s s' t :
  st_tgt s' = st_tgt s -> tgt_accepted cfg r sn srv now s t -> tgt_accepted cfg r sn srv now s' t.
Proof.
  intros H (A & B & C & D). split; [exact A|]. split; [exact B|]. split; [|exact D].
  intros old Ho. rewrite H in Ho. eauto.
Qed.

Lemma tg_set_roles_version t rs : tg_version (tg_set_roles t rs) = tg_version t.
Proof. destruct t; reflexivity. Qed.
Lemma tg_set_roles_expires t rs : tg_expires (tg_set_roles t rs) = tg_expires t.
Proof. destruct t; reflexivity. Qed.
Lemma tg_set_roles_sigs t rs : tg_sigs (tg_set_roles t rs) = tg_sigs t.
Proof. destruct t; reflexivity. Qed.
Lemma tg_set_roles_has_deleg t rs : tg_has_deleg (tg_set_roles t rs) = tg_has_deleg t.
Proof. destruct t; reflexivity. Qed.
Lemma tg_set_roles_roles t rs : tg_roles (tg_set_roles t rs) = rs.
Proof. destruct t; reflexivity. Qed.

Definition loaded_from (t0 t : targets) : Prop := t = t0 \/ exists rs, t = tg_set_roles t0 rs.

(* the end of load_targets, once targets.json is written: attach the delegated roles, validate (again the model's
   own text, equal by conversion) *)
Definition attach (fx : fixes) (cfg : config) (srv : server) (sn : snapshot) (cs : bool) (lim : N)
           (t0 : targets) (w3 : world) : res targets * world :=
  let '(rt, w4) := complete_role (load_delegs fx cfg srv sn cs lim (c_fuel cfg)) (top_ancestors fx) t0 w3 in
  match rt with
  | Err c a => (Err c a, w4)
  | Ok t' => if validate t' then (Ok t', w4) else (Err E_InvalidPath 0, w4)
  end.

Lemma attach_inv fx cfg srv sn cs lim t0 w3 res w' : attach fx cfg srv sn cs lim t0 w3 = (res, w') ->
  (tg_has_deleg t0 = false /\ w' = w3 /\ res = if validate t0 then Ok t0 else Err E_InvalidPath 0)
  \/ (tg_has_deleg t0 = true /\ exists rd,
        load_delegs fx cfg srv sn cs lim (c_fuel cfg) (tg_dkeys t0) (tg_roles t0) (top_ancestors fx) w3 = (rd, w')
        /\ res = match rd with
                 | Ok rs => if validate (tg_set_roles t0 rs) then Ok (tg_set_roles t0 rs) else Err E_InvalidPath 0
                 | Err c a => Err c a
                 end).
Proof.
  unfold attach. intro H. destruct (complete_role _ _ t0 w3) as [rt w4] eqn:E.
  apply complete_role_inv in E as [(Hd & -> & ->)|(Hd & rd & E & ->)].
  - left. destruct (validate t0); injection H as <- <-; auto.
  - right. split; [exact Hd|]. exists rd.
    destruct rd as [rs|c a]; [destruct (validate (tg_set_roles t0 rs))|]; injection H as <- <-; auto.
Qed.

Lemma attach_ok fx cfg srv sn cs lim t0 w3 t w' :
  attach fx cfg srv sn cs lim t0 w3 = (Ok t, w') -> loaded_from t0 t /\ validate t = true.
Proof.
  intro H. apply attach_inv in H as [(_ & _ & E)|(_ & [rs|c a] & _ & E)]; try discriminate.
  - destruct (validate t0) eqn:V; [|discriminate]. injection E as ->. split; [left; reflexivity|exact V].
  - destruct (validate (tg_set_roles t0 rs)) eqn:V; [|discriminate]. injection E as ->. split; [right; eauto|exact V].
Qed.

Lemma attach_frame fx cfg srv sn cs lim (R : store -> store -> Prop) t0 w3 res w' :
  (forall s, R s s) -> (forall a b c, R a b -> R b c -> R a c) -> (forall n s, R s (add_other n s)) ->
  attach fx cfg srv sn cs lim t0 w3 = (res, w') -> R (w_store w3) (w_store w').
Proof.
  intros Rrefl Rtrans Radd H. apply attach_inv in H as [(_ & -> & _)|(_ & rd & E & _)]; [apply Rrefl|].
  (* reflexive, transitive, a request, the record of a file name (last line), the codes *)
  apply (load_delegs_sat fx cfg srv sn cs lim (fun w w' => R (w_store w) (w_store w')) (fun _ => True)) in E as [F _];
    [exact F|intro; apply Rrefl|intros a b c; apply Rtrans|intros; apply Rrefl| |intros; exact I|exact I].
  intros w0 p r0 w1 Eo. apply ds_op_inv in Eo as (_ & _ & [->|[->|[_ ->]]] & _); [apply Rrefl|apply Radd|apply Radd].
Qed.

(* targets.json is loaded like the other two documents ([r0], [w3]); on success its delegated roles
   are attached from there *)
Lemma load_targets_inv fx cfg r sn srv now w res w' :
  load_targets fx cfg r sn srv now w = (res, w') ->
  (lookup name_targets (sn_meta sn) = None /\ res = Err E_MetaMissing 2 /\ w' = w)
  \/ exists m, lookup name_targets (sn_meta sn) = Some m /\ exists r0 w3,
       w_log w3 = w_log w ++ [versioned (r_cs r) (m_version m) name_targets] /\ w_fault w3 = w_fault w
       /\ load_doc fx cfg now upd_tgt (st_tgt (w_store w) = None) (tgt_accepted cfg r sn srv now (w_store w))
                 (w_store w) r0 (w_store w3)
       /\ match r0 with
          | Err c a => res = Err c a /\ w' = w3
          | Ok t0 => attach fx cfg srv sn (r_cs r) (opt_default (m_length m) (c_max_targets_size cfg)) t0 w3
                     = (res, w')
          end.
Proof.
  unfold load_targets. intro H.
  destruct (lookup name_targets (sn_meta sn)) as [m|] eqn:Hm; [|injection H as <- <-; auto].
  right. exists m. split; [reflexivity|].
  set (nm := versioned (r_cs r) (m_version m) name_targets) in *.
  set (lim := opt_default (m_length m) (c_max_targets_size cfg)) in *.
  assert (Refuse : forall c a,
    In c [E_Transport; E_Parse; E_Verify; E_Older; E_MetaMissing; E_VersionMismatch; E_Killed; E_Datastore] ->
    (c = E_Older -> st_tgt (w_store w) <> None) -> (Err c a, logged w nm) = (res, w') ->
    exists r0 w3, w_log w3 = w_log w ++ [nm] /\ w_fault w3 = w_fault w
      /\ load_doc fx cfg now upd_tgt (st_tgt (w_store w) = None) (tgt_accepted cfg r sn srv now (w_store w))
                (w_store w) r0 (w_store w3)
      /\ match r0 with
         | Err c a => res = Err c a /\ w' = w3
         | Ok t0 => attach fx cfg srv sn (r_cs r) lim t0 w3 = (res, w')
         end).
  { intros c a Hc Ho [= <- <-]. exists (Err c a), (logged w nm).
    destruct (load_doc_refused fx cfg now upd_tgt _ (tgt_accepted cfg r sn srv now (w_store w)) w nm c a _ _ Hc Ho eq_refl)
      as (L & F & Ld). auto. }
  destruct (fetch srv nm lim (m_hash m)) as [file|sub] eqn:Hf.
  2:{ eapply Refuse; [| |exact H]; [cbn; auto 7|discriminate]. }
  destruct (f_body file) as [| | | |t0] eqn:Hb; try (eapply Refuse; [| |exact H]; [cbn; auto 7|discriminate]).
  destruct (tg_version t0 =? m_version m) eqn:Ve; cbn [negb] in H.
  2:{ eapply Refuse; [| |exact H]; [cbn; auto 7|discriminate]. }
  destruct (root_verify r 2 (tg_sigs t0)) eqn:V; cbn [negb] in H.
  2:{ eapply Refuse; [| |exact H]; [cbn; auto 7|discriminate]. }
  rewrite logged_store in H.
  destruct (match st_tgt (w_store w) with
            | Some (SDoc old) => root_verify r 2 (tg_sigs old) && (tg_version t0 <? tg_version old)
            | _ => false end) eqn:Old.
  { eapply Refuse; [| |exact H]; [cbn; auto 7|]. intros _ N. rewrite N in Old. discriminate. }
  assert (Acc : (c_enforce cfg = true -> (now <= tg_expires t0)%Z) -> tgt_accepted cfg r sn srv now (w_store w) t0).
  { intro Fr. split; [exists m, file; repeat split; auto; apply N.eqb_eq, Ve|]. split; [exact V|]. split; [|exact Fr].
    intros old Ho Vo. rewrite Ho, Vo in Old. cbn [andb] in Old. lia. }
  apply (check_put_inv fx cfg now (tg_expires t0) 2 (upd_tgt (Some (SDoc t0))) (upd_tgt (Some SCorrupt))
                       (attach fx cfg srv sn (r_cs r) lim t0)) in H
    as [(c & a & -> & Sc & NO & L & F & T)
       |(s1 & Fr & T & [(c & a & -> & Dc & L & F & W)|(w3 & K & S3 & L & F)])].
  - exists (Err c a), w'. split; [exact L|]. split; [exact F|]. split; [|auto].
    left. exists c, a. split; [reflexivity|]. split; [exact Sc|]. split; [intro; contradiction|exact T].
  - exists (Err c a), w'. split; [exact L|]. split; [exact F|]. split; [|auto].
    right. exists t0, s1. auto.
  - exists (Ok t0), w3. split; [exact L|]. split; [exact F|]. split; [|exact K].
    right. exists t0, s1. split; [exact (Acc Fr)|]. split; [exact T|]. split; [right; left; exact S3|auto].
Qed.

Lemma load_targets_ok fx cfg r sn srv now w t w' : load_targets fx cfg r sn srv now w = (Ok t, w') ->
  exists m t0 s1 w3, lookup name_targets (sn_meta sn) = Some m /\ tgt_accepted cfg r sn srv now (w_store w) t0
    /\ timed fx now (w_store w) s1 /\ w_store w3 = upd_tgt (Some (SDoc t0)) s1
    /\ attach fx cfg srv sn (r_cs r) (opt_default (m_length m) (c_max_targets_size cfg)) t0 w3 = (Ok t, w').
Proof.
  intro H. apply load_targets_inv in H as [(_ & E & _)|(m & Hm & [t0|c a] & w3 & _ & _ & Ld & K)];
    [discriminate| |destruct K; discriminate].
  apply load_doc_ok in Ld as (Acc & s1 & T & S). exists m, t0, s1, w3. auto.
Qed.

Lemma load_root_inv fx cfg shipped srv now w res w' : load_root fx cfg shipped srv now w = (res, w') ->
  (w' = w /\ exists c, res = Err c 0 /\ (c = E_ParseTrusted \/ c = E_VerifyTrusted))
  \/ exists r0 rw w1, shipped = CRoot r0 /\ root_verify r0 0 (r_sigs r0) = true
       /\ root_walk fx (c_fuel cfg) cfg srv (r_version r0) r0 w = (rw, w1)
       /\ match rw with
          | Err c a => res = Err c a /\ w' = w1
          | Ok r => finish_root fx cfg now (reference_root fx r0 (w_store w)) r w1 = (res, w')
          end.
Proof.
  unfold load_root. intro H.
  destruct shipped as [|r0| | |]; try (injection H as <- <-; left; eauto).
  destruct (root_verify r0 0 (r_sigs r0)) eqn:V; cbn [negb] in H; [|injection H as <- <-; left; eauto].
  right. destruct (root_walk fx (c_fuel cfg) cfg srv (r_version r0) r0 w) as [rw w1] eqn:Ew.
  exists r0, rw, w1. split; [reflexivity|]. split; [exact V|]. split; [exact Ew|]. destruct rw; [exact H|injection H as <- <-; auto].
Qed.

Lemma cycle_inv fx cfg shipped srv now w res w' : cycle fx cfg shipped srv now w = (res, w') ->
  exists rR w1, load_root fx cfg shipped srv now w = (rR, w1) /\
  match rR with Err c a => res = Err c a /\ w' = w1 | Ok r =>
  exists rT w2, load_timestamp fx cfg r srv now w1 = (rT, w2) /\
  match rT with Err c a => res = Err c a /\ w' = w2 | Ok ts =>
  exists rS w3, load_snapshot fx cfg r ts srv now w2 = (rS, w3) /\
  match rS with Err c a => res = Err c a /\ w' = w3 | Ok sn =>
  exists rG, load_targets fx cfg r sn srv now w3 = (rG, w') /\
  match rG with
  | Err c a => res = Err c a
  | Ok t => res = Ok {| rp_root := r; rp_ts := ts; rp_snap := sn; rp_targets := t |}
  end end end end.
Proof.
  unfold cycle. intro H.
  destruct (load_root fx cfg shipped srv now w) as [[r|c a] w1]; do 2 eexists; (split; [reflexivity|]); cbv iota beta.
  2:{ injection H as <- <-. auto. }
  destruct (load_timestamp fx cfg r srv now w1) as [[ts|c a] w2]; do 2 eexists; (split; [reflexivity|]); cbv iota beta.
  2:{ injection H as <- <-. auto. }
  destruct (load_snapshot fx cfg r ts srv now w2) as [[sn|c a] w3]; do 2 eexists; (split; [reflexivity|]); cbv iota beta.
  2:{ injection H as <- <-. auto. }
  destruct (load_targets fx cfg r sn srv now w3) as [[t|c a] w4]; injection H as <- <-; eexists; split; reflexivity.
Qed.

Lemma cycle_ok_intro fx cfg shipped srv now w r w1 ts w2 sn w3 t w4 :
  load_root fx cfg shipped srv now w = (Ok r, w1) -> load_timestamp fx cfg r srv now w1 = (Ok ts, w2) ->
  load_snapshot fx cfg r ts srv now w2 = (Ok sn, w3) -> load_targets fx cfg r sn srv now w3 = (Ok t, w4) ->
  cycle fx cfg shipped srv now w = (Ok {| rp_root := r; rp_ts := ts; rp_snap := sn; rp_targets := t |}, w4).
Proof. intros E1 E2 E3 E4. unfold cycle. rewrite E1, E2, E3, E4. reflexivity. Qed.
Arguments cycle_ok_intro {fx cfg shipped srv now w r w1 ts w2 sn w3 t w4}.

(* [P]: what steps 2 to 4 may rely on of the root that step 1 returns *)
Lemma cycle_rel (R : world -> world -> Prop) (P : root -> Prop) fx cfg shipped srv now w :
  (forall a b c, R a b -> R b c -> R a c) ->
  (forall rr w1, load_root fx cfg shipped srv now w = (rr, w1) ->
                 R w w1 /\ match rr with Ok r => P r | Err _ _ => True end) ->
  (forall r w1 rr w2, P r -> load_timestamp fx cfg r srv now w1 = (rr, w2) -> R w1 w2) ->
  (forall r ts w2 rr w3, P r -> load_snapshot fx cfg r ts srv now w2 = (rr, w3) -> R w2 w3) ->
  (forall r sn w3 rr w4, P r -> load_targets fx cfg r sn srv now w3 = (rr, w4) -> R w3 w4) ->
  forall res w', cycle fx cfg shipped srv now w = (res, w') -> R w w'.
Proof.
  intros Rtrans H1 H2 H3 H4 res w' H.
  apply cycle_inv in H as (rR & w1 & E1 & H). apply H1 in E1 as [E1 Pr].
  destruct rR as [r|c a]; [|destruct H as [_ ->]; exact E1].
  destruct H as (rT & w2 & E2 & H). apply (H2 _ _ _ _ Pr) in E2. apply (Rtrans _ _ _ E1) in E2.
  destruct rT as [ts|c a]; [|destruct H as [_ ->]; exact E2].
  destruct H as (rS & w3 & E3 & H). apply (H3 _ _ _ _ _ Pr) in E3. apply (Rtrans _ _ _ E2) in E3.
  destruct rS as [sn|c a]; [|destruct H as [_ ->]; exact E3].
  destruct H as (rG & E4 & _). apply (H4 _ _ _ _ _ Pr) in E4. exact (Rtrans _ _ _ E3 E4).
Qed.

Lemma cycle_err (E : N -> Prop) fx cfg shipped srv now :
  (forall w c a w', load_root fx cfg shipped srv now w = (Err c a, w') -> E c) ->
  (forall r w c a w', load_timestamp fx cfg r srv now w = (Err c a, w') -> E c) ->
  (forall r ts w c a w', load_snapshot fx cfg r ts srv now w = (Err c a, w') -> E c) ->
  (forall r sn w c a w', load_targets fx cfg r sn srv now w = (Err c a, w') -> E c) ->
  forall w c a w', cycle fx cfg shipped srv now w = (Err c a, w') -> E c.
Proof.
  intros H1 H2 H3 H4 w c a w' H.
  apply cycle_inv in H as (rR & w1 & E1 & H).
  destruct rR as [r|c1 a1]; [|destruct H as [[= -> ->] _]; exact (H1 _ _ _ _ E1)].
  destruct H as (rT & w2 & E2 & H).
  destruct rT as [ts|c1 a1]; [|destruct H as [[= -> ->] _]; exact (H2 _ _ _ _ _ E2)].
  destruct H as (rS & w3 & E3 & H).
  destruct rS as [sn|c1 a1]; [|destruct H as [[= -> ->] _]; exact (H3 _ _ _ _ _ _ E3)].
  destruct H as (rG & E4 & H).
  destruct rG as [t|c1 a1]; [discriminate|]. injection H as -> ->. exact (H4 _ _ _ _ _ _ E4).
Qed.

Lemma run_cycle_ok_inv fx c s rp w' : run_cycle fx c s = (Ok rp, w') ->
  exists r0 w0 w1 w2 w3,
    cy_shipped c = CRoot r0 /\ root_verify r0 0 (r_sigs r0) = true
    /\ root_walk fx (c_fuel (cy_cfg c)) (cy_cfg c) (cy_srv c) (r_version r0) r0 (world0 s (cy_fault c))
       = (Ok (rp_root rp), w0)
    /\ finish_root fx (cy_cfg c) (cy_now c) (reference_root fx r0 s) (rp_root rp) w0 = (Ok (rp_root rp), w1)
    /\ load_timestamp fx (cy_cfg c) (rp_root rp) (cy_srv c) (cy_now c) w1 = (Ok (rp_ts rp), w2)
    /\ load_snapshot fx (cy_cfg c) (rp_root rp) (rp_ts rp) (cy_srv c) (cy_now c) w2 = (Ok (rp_snap rp), w3)
    /\ load_targets fx (cy_cfg c) (rp_root rp) (rp_snap rp) (cy_srv c) (cy_now c) w3 = (Ok (rp_targets rp), w').
Proof.
  unfold run_cycle. intro H.
  apply cycle_inv in H as ([r|] & w1 & E1 & H); [|destruct H; discriminate].
  destruct H as ([ts|] & w2 & E2 & H); [|destruct H; discriminate].
  destruct H as ([sn|] & w3 & E3 & H); [|destruct H; discriminate].
  destruct H as ([t|] & E4 & H); [|discriminate]. injection H as ->. cbn [rp_root rp_ts rp_snap rp_targets].
  apply load_root_inv in E1 as [(_ & c0 & E & _)|(r0 & [r'|] & w0 & Hs & V & Ew & E1)]; try discriminate.
  2:{ destruct E1; discriminate. }
  pose proof (finish_root_ok _ _ _ _ _ _ _ _ E1) as (-> & _).
  exists r0, w0, w1, w2, w3. auto 10.
Qed.

(* With an atomic store the datastore moves through a cycle only by complete writes: of the clock value; of the
   name of a delegated-role file; the removal of timestamp.json and snapshot.json, only when the final root has
   other online keys than the reference root; of that root; of a timestamp, snapshot or targets document acceptable
   to the store it is written over. A preorder that each of these preserves holds across the cycle, however it ends. *)
Section Writes.
  Variables (R : store -> store -> Prop) (fx : fixes) (c : cyc) (s : store).
  Hypothesis Hatomic : fx_atomic_store fx = true.
  Hypothesis Rrefl : forall a, R a a.
  Hypothesis Rtrans : forall a b d, R a b -> R b d -> R a d.
  Hypothesis Rtime : forall a, R a (upd_time (Some (SDoc (cy_now c))) a).
  Hypothesis Rother : forall n a, R a (add_other n a).
  Hypothesis Rremove : forall r0 r a b, cy_shipped c = CRoot r0 -> final_root fx c = Some r ->
    rotated (reference_root fx r0 s) r = true -> removed a b -> R a b.
  Hypothesis Rroot : forall r a, final_root fx c = Some r -> R a (upd_root (Some (SDoc r)) a).
  Hypothesis Rts : forall r a d, final_root fx c = Some r ->
    ts_accepted (cy_cfg c) r (cy_srv c) (cy_now c) a d -> R a (upd_ts (Some (SDoc d)) a).
  Hypothesis Rsnap : forall r ts a d, final_root fx c = Some r ->
    snap_accepted (cy_cfg c) r ts (cy_srv c) (cy_now c) a d -> R a (upd_snap (Some (SDoc d)) a).
  Hypothesis Rtgt : forall r sn a d, final_root fx c = Some r ->
    tgt_accepted (cy_cfg c) r sn (cy_srv c) (cy_now c) a d -> R a (upd_tgt (Some (SDoc d)) a).

  Lemma timed_rel a b : timed fx (cy_now c) a b -> R a b.
  Proof. intro T. apply (wrote_atomic _ _ _ _ _ Hatomic) in T as [->| ->]; [apply Rrefl|apply Rtime]. Qed.

  (* [acc a1] is acceptability to the store [a1] the document is written over, which has the documents of [a] *)
  Lemma load_doc_rel {D} (put : option (stored D) -> store -> store) ns (acc : store -> D -> Prop) a res b :
    (forall a1 d, same_docs a a1 -> acc a d -> acc a1 d) ->
    (forall a1 d, acc a1 d -> R a1 (put (Some (SDoc d)) a1)) ->
    load_doc fx (cy_cfg c) (cy_now c) put ns (acc a) a res b -> R a b.
  Proof.
    intros Mono Put [(c0 & a0 & _ & _ & _ & T)|(d & a1 & Acc & T & W & _)]; [exact (timed_rel _ _ T)|].
    apply (Rtrans _ _ _ (timed_rel _ _ T)).
    apply (wrote_atomic _ _ _ _ _ Hatomic) in W as [->| ->]; [apply Rrefl|].
    apply Put, (Mono _ _ (timed_same_docs _ _ _ _ T) Acc).
  Qed.

  Lemma cycle_writes res w' : run_cycle fx c s = (res, w') -> R s (w_store w').
  Proof.
    unfold run_cycle.
    apply (cycle_rel (fun w w' => R (w_store w) (w_store w')) (fun r => final_root fx c = Some r));
      [intros a b d; apply Rtrans| | | |].
    - intros rr w1 E. apply load_root_inv in E as [(-> & c0 & -> & _)|(r0 & rw & wa & Hs & V & Ew & E)].
      { split; [apply Rrefl|exact I]. }
      pose proof (root_walk_store _ _ _ _ _ _ _ _ _ Ew) as (Sa & _).
      destruct rw as [r|cw aw]; [|destruct E as [-> ->]; rewrite Sa; split; [apply Rrefl|exact I]].
      pose proof (final_root_of_walk _ _ _ _ _ _ Hs V Ew) as Hfr.
      apply finish_root_inv in E as (_ & _ & s1 & s2 & T & Rm & Wr & Ok1). rewrite Sa in T. cbn [world0 w_store] in *.
      split; [|destruct rr; [destruct Ok1 as (-> & _); exact Hfr|exact I]].
      apply (Rtrans _ _ _ (timed_rel _ _ T)). apply Rtrans with s2.
      + destruct (rotated (reference_root fx r0 s) r) eqn:Hrot; [exact (Rremove _ _ _ _ Hs Hfr Hrot Rm)|subst s2; apply Rrefl].
      + destruct (fx_prev_root fx); [|rewrite Wr; apply Rrefl].
        apply (wrote_atomic _ _ _ _ _ Hatomic) in Wr as [->| ->]; [apply Rrefl|exact (Rroot _ _ Hfr)].
    - intros r w1 rr w2 Hfr E. apply load_timestamp_inv in E as (_ & _ & Ld).
      apply (load_doc_rel upd_ts _ (ts_accepted (cy_cfg c) r (cy_srv c) (cy_now c)) _ _ _) in Ld; [exact Ld| |intros a1 d; exact (Rts r a1 d Hfr)].
      intros a1 d (_ & T & _). apply ts_accepted_mono. left. symmetry. exact T.
    - intros r ts w2 rr w3 Hfr E. apply load_snapshot_inv in E as [(_ & _ & ->)|(m & _ & _ & _ & Ld)]; [apply Rrefl|].
      apply (load_doc_rel upd_snap _ (snap_accepted (cy_cfg c) r ts (cy_srv c) (cy_now c)) _ _ _) in Ld; [exact Ld| |intros a1 d; exact (Rsnap r ts a1 d Hfr)].
      intros a1 d (_ & _ & S & _). apply snap_accepted_mono. left. symmetry. exact S.
    - intros r sn w3 rr w4 Hfr E.
      apply load_targets_inv in E as [(_ & _ & ->)|(m & _ & r0 & wa & _ & _ & Ld & K)]; [apply Rrefl|].
      apply (load_doc_rel upd_tgt _ (tgt_accepted (cy_cfg c) r sn (cy_srv c) (cy_now c)) _ _ _) in Ld; [| |intros a1 d; exact (Rtgt r sn a1 d Hfr)].
      + destruct r0 as [t0|c0 a0]; [|destruct K as [_ ->]; exact Ld].
        exact (Rtrans _ _ _ Ld (attach_frame _ _ _ _ _ _ R _ _ _ _ Rrefl Rtrans Rother K)).
      + intros a1 d (_ & _ & _ & G). apply tgt_accepted_mono. symmetry. exact G.
  Qed.
End Writes.
