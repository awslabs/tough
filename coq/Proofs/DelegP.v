(* Glob matching equals the usual inductive definition of wildcard matching (C07_glob_spec); the authorised
   entries of a delegation tree in pre-order, of which find_target returns the first (the list half here,
   find_roles_first; the theorem is C07_find_is_first_authorised), each reached through matching delegations only. *)
From ToughV Require Import Model.Base Model.Sig Model.Glob Model.Deleg Proofs.BaseP.

(* wildcard matching: '*' (42) matches any string, '?' (63) any one character, both across '/' *)
Inductive gmatch : bytes -> bytes -> Prop :=
| gm_nil : gmatch [] []
| gm_star_skip p s : gmatch p s -> gmatch (42 :: p) s
| gm_star_eat p c s : gmatch (42 :: p) s -> gmatch (42 :: p) (c :: s)
| gm_quest p c s : gmatch p s -> gmatch (63 :: p) (c :: s)
| gm_lit p c s : c <> 42 -> gmatch p s -> gmatch (c :: p) (c :: s).

Lemma glob_match_sound fuel : forall p s, glob_match fuel p s = true -> gmatch p s.
Proof.
  induction fuel as [|f IH]; intros p s H; [discriminate|]. cbn [glob_match] in H.
  destruct p as [|c p'].
  - destruct s; [constructor|discriminate].
  - destruct (c =? 42) eqn:E42.
    + apply N.eqb_eq in E42. subst c. apply orb_true_iff in H as [H|H].
      * apply gm_star_skip, IH, H.
      * destruct s as [|d s']; [discriminate|]. apply gm_star_eat, IH, H.
    + destruct s as [|d s']; [discriminate|]. apply N.eqb_neq in E42.
      destruct ((c =? 63) || (c =? d)) eqn:E; [|discriminate].
      apply orb_true_iff in E as [E|E]; apply N.eqb_eq in E; subst c.
      * apply gm_quest, IH, H.
      * apply gm_lit; [exact E42|apply IH, H].
Qed.

Lemma glob_match_complete p s : gmatch p s ->
  forall fuel, (length p + length s < fuel)%nat -> glob_match fuel p s = true.
Proof.
  induction 1 as [|p s H IH|p c s H IH|p c s H IH|p c s Hc H IH]; intros fuel Hf;
    (destruct fuel as [|f]; [cbn in Hf; lia|]); cbn [glob_match].
  - reflexivity.
  - change (42 =? 42) with true. cbv iota. rewrite IH by (cbn in Hf; lia). reflexivity.
  - change (42 =? 42) with true. cbv iota. rewrite (IH f) by (cbn in *; lia). apply orb_true_r.
  - change (63 =? 42) with false. cbv iota. change (63 =? 63) with true. cbn [orb].
    apply IH. cbn in Hf. lia.
  - assert (c =? 42 = false) as -> by (apply N.eqb_neq; exact Hc).
    rewrite N.eqb_refl, orb_true_r. apply IH. cbn in Hf. lia.
Qed.

Section targets_ind2.
  Variable P : targets -> Prop.
  Hypothesis Hstep : forall v e en h k roles s,
    Forall (fun hc => match snd hc with Some c => P c | None => True end) roles ->
    P (Targets v e en h k roles s).
  Fixpoint targets_ind2 (t : targets) : P t :=
    match t with
    | Targets v e en h k roles s =>
        Hstep v e en h k roles s
          ((fix go (l : list (dhdr * option targets)) :
              Forall (fun hc => match snd hc with Some c => P c | None => True end) l :=
              match l with
              | [] => Forall_nil _
              | (hd, Some c) :: r => Forall_cons (hd, Some c) (targets_ind2 c) (go r)
              | (hd, None) :: r => Forall_cons (hd, None) I (go r)
              end) roles)
    end.
End targets_ind2.

(* the authorised entries for a name, in pre-order: the role's own entry, then, for each delegation in
   listed order whose paths match the name, the authorised entries of the delegated role *)
Fixpoint auth_entries (n : tname) (t : targets) : list tinfo :=
  let 'Targets _ _ entries has_deleg _ roles _ := t in
  (match lookup_target n entries with Some i => [i] | None => [] end) ++
  (if has_deleg then
     (fix go (roles : list (dhdr * option targets)) : list tinfo :=
        match roles with
        | [] => []
        | (h, c) :: rest =>
            (if pathset_matches (dh_paths h) n
             then match c with Some child => auth_entries n child | None => [] end
             else []) ++ go rest
        end) roles
   else []).

Fixpoint auth_roles (n : tname) (roles : list (dhdr * option targets)) : list tinfo :=
  match roles with
  | [] => []
  | (h, c) :: rest =>
      (if pathset_matches (dh_paths h) n
       then match c with Some child => auth_entries n child | None => [] end
       else []) ++ auth_roles n rest
  end.

Lemma auth_entries_eq n v e en h k roles s :
  auth_entries n (Targets v e en h k roles s)
  = (match lookup_target n en with Some i => [i] | None => [] end) ++ (if h then auth_roles n roles else []).
Proof.
  cbn [auth_entries]. f_equal. destruct h; [|reflexivity].
  induction roles as [|[hd c] r IH]; [reflexivity|]. cbn [auth_roles]. rewrite <- IH. reflexivity.
Qed.

Fixpoint find_roles (n : tname) (roles : list (dhdr * option targets)) : option tinfo :=
  match roles with
  | [] => None
  | (h, c) :: rest =>
      if pathset_matches (dh_paths h) n then
        match c with
        | Some child => match find_target n child with Some i => Some i | None => find_roles n rest end
        | None => find_roles n rest
        end
      else find_roles n rest
  end.

Lemma find_target_eq n v e en h k roles s :
  find_target n (Targets v e en h k roles s)
  = match lookup_target n en with
    | Some i => Some i
    | None => if h then find_roles n roles else None
    end.
Proof.
  cbn [find_target]. destruct (lookup_target n en); [reflexivity|]. destruct h; [|reflexivity].
  induction roles as [|[hd c] r IH]; [reflexivity|]. cbn [find_roles]. rewrite <- IH. reflexivity.
Qed.

Lemma find_roles_first n roles :
  Forall (fun hc => match snd hc with
                    | Some c => find_target n c = hd_error (auth_entries n c)
                    | None => True
                    end) roles ->
  find_roles n roles = hd_error (auth_roles n roles).
Proof.
  induction 1 as [|[hd c] r Hc _ IHr]; [reflexivity|]. cbn [find_roles auth_roles]. cbn [snd] in Hc.
  destruct (pathset_matches (dh_paths hd) n); [|exact IHr].
  destruct c as [child|]; [|exact IHr].
  rewrite Hc. destruct (auth_entries n child) as [|i l]; [exact IHr|reflexivity].
Qed.

Inductive reachable (n : tname) : targets -> tinfo -> Prop :=
| reach_own t i : lookup_target n (tg_entries t) = Some i -> reachable n t i
| reach_via t h child i :
    tg_has_deleg t = true -> In (h, Some child) (tg_roles t) ->
    pathset_matches (dh_paths h) n = true -> reachable n child i -> reachable n t i.

Lemma auth_roles_In n i roles : In i (auth_roles n roles) ->
  exists h child, In (h, Some child) roles /\ pathset_matches (dh_paths h) n = true
                  /\ In i (auth_entries n child).
Proof.
  induction roles as [|[h c] r IH]; [intros []|]. cbn [auth_roles]. intro H. apply in_app_or in H as [H|H].
  - destruct (pathset_matches (dh_paths h) n) eqn:M; [|contradiction]. destruct c as [child|]; [|contradiction].
    exists h, child. split; [left; reflexivity|]. split; assumption.
  - destruct (IH H) as (h' & child & Hin & M & Hi). exists h', child. split; [right; exact Hin|]. split; assumption.
Qed.

Theorem auth_entries_reachable n t : forall i, In i (auth_entries n t) -> reachable n t i.
Proof.
  induction t as [v e en h k roles s IH] using targets_ind2. intro i. rewrite auth_entries_eq.
  intro H. apply in_app_or in H as [H|H].
  - destruct (lookup_target n en) as [j|] eqn:E; [|contradiction]. destruct H as [->|[]].
    apply reach_own. exact E.
  - destruct h; [|contradiction]. apply auth_roles_In in H as (hd & child & Hin & M & Hi).
    rewrite Forall_forall in IH. eapply reach_via; [reflexivity|exact Hin|exact M|exact (IH _ Hin i Hi)].
Qed.

Example glob_examples :
  glob [42; 46; 116; 103; 122] [116; 47; 102; 46; 116; 103; 122] = true   (* "*.tgz" matches "t/f.tgz" *)
  /\ glob [97; 63; 99] [97; 47; 99] = true                                 (* "a?c" matches "a/c" *)
  /\ glob [97; 63; 99] [97; 99] = false.
Proof. repeat split; vm_compute; reflexivity. Qed.
