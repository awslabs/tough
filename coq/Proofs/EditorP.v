(* The target map after an update (Model/Editor.v, C17): looking a name up in the merged map gives the last entry
   added under it, else the old one. *)
From ToughV Require Import Model.Base Model.Editor Proofs.BaseP.

Lemma get_put k v m k' : get k' (put k v m) = if bytes_eqb k' k then Some v else get k' m.
Proof.
  induction m as [|[a b] m IH]; cbn [put get].
  - destruct (bytes_eqb k' k); reflexivity.
  - destruct (bytes_eqb k a) eqn:E; cbn [get].
    + apply bytes_eqb_eq in E. subst a. destruct (bytes_eqb k' k); reflexivity.
    + rewrite IH. destruct (bytes_eqb k' k) eqn:E2; [|reflexivity].
      apply bytes_eqb_eq in E2. subst k'. rewrite E. reflexivity.
Qed.

Fixpoint last_added (k : bytes) (added : list (bytes * N)) (acc : option N) : option N :=
  match added with
  | [] => acc
  | (k', v) :: r => last_added k r (if bytes_eqb k k' then Some v else acc)
  end.

Lemma last_added_acc k added : forall acc,
  last_added k added acc = match last_added k added None with Some v => Some v | None => acc end.
Proof.
  induction added as [|[a b] r IH]; intro acc; cbn [last_added]; [reflexivity|].
  destruct (bytes_eqb k a).
  - rewrite (IH (Some b)). destruct (last_added k r None); reflexivity.
  - apply IH.
Qed.

Lemma get_merge k added : forall existing,
  get k (merge existing added) = match last_added k added None with Some v => Some v | None => get k existing end.
Proof.
  unfold merge. induction added as [|[a b] r IH]; intro existing; cbn [fold_left last_added fst snd]; [reflexivity|].
  rewrite IH, get_put. rewrite (last_added_acc k r (if bytes_eqb k a then Some b else None)).
  destruct (last_added k r None); [reflexivity|]. destruct (bytes_eqb k a); reflexivity.
Qed.
