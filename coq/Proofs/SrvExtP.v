(* Server extensionality: the outcome of every loader of the update cycle - result and final world -
   depends on the server only through the answers to the requests the loader makes. Two servers that
   answer every logged request alike (for every size limit and expected digest) are indistinguishable.
   Stated for every variant of the model ([fx] arbitrary). *)
From ToughV Require Import Model.Base Model.Deleg Model.Client.
From ToughV Require Import Proofs.ClientP.

Definition same_answer (srv srv' : server) (n : bytes) : Prop :=
  forall lim h, fetch srv' n lim h = fetch srv n lim h.

Lemma same_answer_refl srv n : same_answer srv srv n.
Proof. intros lim h. reflexivity. Qed.

Section Ext.
  Variables srv srv' : server.

  (* [out] is what a loader returns on [srv] from world [w], [out'] what it returns on [srv']: the log
     only grows, and if [srv'] answers the added requests as [srv] does the two outcomes are equal *)
  Definition ext_res {A} (w : world) (out out' : res A * world) : Prop :=
    exists l, w_log (snd out) = w_log w ++ l /\ (Forall (same_answer srv srv') l -> out' = out).

  Lemma ext_res_refl {A} w (out : res A * world) : w_log (snd out) = w_log w -> ext_res w out out.
  Proof. intro L. exists []. rewrite app_nil_r. split; [exact L|reflexivity]. Qed.

  Lemma ext_res_log {A} w w1 (out out' : res A * world) :
    w_log w1 = w_log w -> ext_res w1 out out' -> ext_res w out out'.
  Proof. intros L (l & E & H). exists l. rewrite <- L. auto. Qed.

  (* a request is logged on both sides; what follows it may assume that it was answered alike *)
  Lemma ext_res_fetch {A} w name lim h (K K' : fres -> res A * world) :
    (forall y, ext_res (logged w name) (K y) (K' y)) ->
    ext_res w (K (fetch srv name lim h)) (K' (fetch srv' name lim h)).
  Proof.
    intro H. destruct (H (fetch srv name lim h)) as (l & L & E). exists (name :: l). split.
    - rewrite L, logged_log, <- app_assoc. reflexivity.
    - intro Hs. inversion Hs as [|x y Hn Hl]; subst. rewrite (Hn lim h). apply E, Hl.
  Qed.

  (* sequencing: the requests of [m], then those of what follows it from the world it left *)
  Lemma ext_res_bind {A B} w (m m' : res A * world) (K K' : res A * world -> res B * world) :
    ext_res w m m' ->
    (forall x w1, ext_res w1 (K (x, w1)) (K' (x, w1))) ->
    ext_res w (K m) (K' m').
  Proof.
    intros (l1 & L1 & E1) H. destruct m as [x w1]. destruct (H x w1) as (l2 & L2 & E2).
    cbn [snd] in L1. exists (l1 ++ l2). split.
    - rewrite L2, L1, app_assoc. reflexivity.
    - intro Hs. apply Forall_app in Hs as [H1 H2]. rewrite (E1 H1). apply E2, H2.
  Qed.

  (* the goal compares two runs that differ in the server only; [eval pattern] abstracts what surrounds the next
     fetch (ext_fetch) or the next loader (ext_bind) on both sides, so that one lemma serves every call site *)
  Ltac ext_fetch :=
    match goal with
    | |- ext_res ?w ?a ?b =>
        match a with
        | context [fetch srv ?n ?l ?h] =>
            let a' := eval pattern (fetch srv n l h) in a in
            let b' := eval pattern (fetch srv' n l h) in b in
            match a' with
            | ?K _ => match b' with ?K' _ => apply (ext_res_fetch w n l h K K') end
            end
        end
    end.

  Ltac ext_bind m m' :=
    match goal with
    | |- ext_res ?w ?a ?b =>
        let a' := eval pattern m in a in
        let b' := eval pattern m' in b in
        match a' with
        | ?K _ => match b' with ?K' _ => apply (ext_res_bind w m m' K K') end
        end
    end.

  (* a branch that makes no further request *)
  Ltac fin := apply ext_res_refl; cbn [snd]; try reflexivity; congruence.

  (* the common end of the three loaders: no request of its own *)
  Lemma check_put_ext_res {A} fx cfg now e role full trunc (k k' : world -> res A * world) w1 :
    (forall w3, ext_res w3 (k w3) (k' w3)) ->
    ext_res w1 (check_put fx cfg now e role full trunc k w1) (check_put fx cfg now e role full trunc k' w1).
  Proof.
    intro Hk. unfold check_put.
    destruct (check_expired fx cfg now e role w1) as [[u|c a] w2] eqn:E1; apply check_expired_inv in E1 as (L1 & _); [|fin].
    destruct (ds_op fx w2 full trunc) as [[u3|c a] w3] eqn:E3; apply ds_op_inv in E3 as (E3 & _); [|fin].
    eapply ext_res_log; [|apply Hk]; congruence.
  Qed.

  Lemma root_walk_ext_res fx cfg orig : forall fuel cur w,
    ext_res w (root_walk fx fuel cfg srv orig cur w) (root_walk fx fuel cfg srv' orig cur w).
  Proof.
    induction fuel as [|f IH]; intros cur w; [cbn [root_walk]; fin|]. rewrite !root_walk_step.
    destruct (r_version cur <? update_limit fx orig (c_max_root_updates cfg)); [|fin].
    unfold next. ext_fetch. intro y. cbv beta. destruct (read_answer cur y); [apply IH|fin|fin].
  Qed.

  Lemma load_root_ext_res fx cfg shipped now w :
    ext_res w (load_root fx cfg shipped srv now w) (load_root fx cfg shipped srv' now w).
  Proof.
    unfold load_root. destruct shipped as [|r0| | |]; try fin.
    destruct (negb (root_verify r0 0 (r_sigs r0))); [fin|].
    ext_bind (root_walk fx (c_fuel cfg) cfg srv (r_version r0) r0 w)
             (root_walk fx (c_fuel cfg) cfg srv' (r_version r0) r0 w); [apply root_walk_ext_res|].
    intros x w1. cbv beta match. destruct x as [r|c a]; [|fin].
    destruct (finish_root fx cfg now (reference_root fx r0 (w_store w)) r w1) as [res w2] eqn:E.
    apply finish_root_inv in E as (L & _). fin.
  Qed.

  Lemma load_timestamp_ext_res fx cfg r now w :
    ext_res w (load_timestamp fx cfg r srv now w) (load_timestamp fx cfg r srv' now w).
  Proof.
    unfold load_timestamp. cbv zeta. ext_fetch. intros [file|sub]; cbv beta match; [|fin].
    destruct (f_body file) as [| |ts| |]; try fin.
    destruct (negb (root_verify r 3 (ts_sigs ts))); [fin|].
    match goal with |- ext_res _ (if ?c then _ else _) _ => destruct c end; [fin|].
    apply check_put_ext_res. intro w3. fin.
  Qed.

  Lemma load_snapshot_ext_res fx cfg r ts now w :
    ext_res w (load_snapshot fx cfg r ts srv now w) (load_snapshot fx cfg r ts srv' now w).
  Proof.
    unfold load_snapshot. destruct (lookup name_snapshot (ts_meta ts)) as [m|]; [|fin].
    cbv zeta. ext_fetch. intros [file|sub]; cbv beta match; [|fin].
    destruct (f_body file) as [| | |sn|]; try fin.
    destruct (negb (sn_version sn =? m_version m)); [fin|].
    destruct (negb (root_verify r 1 (sn_sigs sn))); [fin|].
    match goal with |- ext_res _ (match ?chk with Ok _ => _ | Err _ _ => _ end) _ => destruct chk as [u0|cc ac] end; [|fin].
    apply check_put_ext_res. intro w3. fin.
  Qed.

  Section Delegs.
    Variables (fx : fixes) (cfg : config) (snap : snapshot) (cs : bool) (lim : N).

    Lemma fetch_role_ext_res {A} dkeys all anc name (k k' : targets -> world -> res A * world) w :
      (forall t w2, ext_res w2 (k t w2) (k' t w2)) ->
      ext_res w (fetch_role fx cfg srv snap cs lim dkeys all anc name k w)
                (fetch_role fx cfg srv' snap cs lim dkeys all anc name k' w).
    Proof.
      intro Hk. unfold fetch_role.
      destruct (fx_ancestors fx && mem_bytes name anc); [fin|].
      destruct (lookup (json_of name) (sn_meta snap)) as [m|]; [|fin].
      cbv zeta. ext_fetch. intros [file|sub]; cbv beta match; [|fin].
      destruct (f_body file) as [| | | |t]; try fin.
      destruct (negb (deleg_verify fx dkeys all name (tg_sigs t))); [fin|].
      destruct (negb (tg_version t =? m_version m)); [fin|].
      match goal with |- context [ds_op ?a ?b ?c ?d] => destruct (ds_op a b c d) as [[u2|c2 a2] w2] eqn:E2 end;
        apply ds_op_inv in E2 as (E2 & _); [|fin].
      eapply ext_res_log; [exact E2|]. apply Hk.
    Qed.

    Lemma fetch_level_ext_res dkeys all anc : forall todo acc w,
      ext_res w (fetch_level fx cfg srv snap cs lim dkeys all todo anc acc w)
                (fetch_level fx cfg srv' snap cs lim dkeys all todo anc acc w).
    Proof.
      induction todo as [|[h o] rest IH]; intros acc w; [cbn [fetch_level]; fin|].
      rewrite !fetch_level_cons. apply fetch_role_ext_res. intros t w2. apply IH.
    Qed.

    Definition rec_ext (rec rec' : list N -> list (dhdr * option targets) -> list bytes -> world
                                   -> res (list (dhdr * option targets)) * world) : Prop :=
      forall dk rs anc w, ext_res w (rec dk rs anc w) (rec' dk rs anc w).

    Lemma complete_role_ext_res rec rec' : rec_ext rec rec' -> forall anc t w,
      ext_res w (complete_role rec anc t w) (complete_role rec' anc t w).
    Proof.
      intros Hrec anc t w. unfold complete_role. destruct (tg_has_deleg t); [|fin].
      ext_bind (rec (tg_dkeys t) (tg_roles t) anc w) (rec' (tg_dkeys t) (tg_roles t) anc w); [apply Hrec|].
      intros x w1. cbv beta match. destruct x; fin.
    Qed.

    Lemma second_loop_ext_res rec rec' : rec_ext rec rec' -> forall todo anc remaining w,
      ext_res w (second_loop rec anc todo remaining w) (second_loop rec' anc todo remaining w).
    Proof.
      intro Hrec. induction todo as [|[h o] rest IH]; intros anc remaining w; [cbn [second_loop]; fin|].
      rewrite !second_loop_cons. destruct (lookup (dh_name h) remaining) as [t|]; [|fin].
      ext_bind (complete_role rec (anc ++ [dh_name h]) t w) (complete_role rec' (anc ++ [dh_name h]) t w);
        [apply complete_role_ext_res, Hrec|].
      intros x w1. cbv beta match. destruct x as [t'|c a]; [|fin].
      ext_bind (second_loop rec anc rest (assoc_remove (dh_name h) remaining) w1)
               (second_loop rec' anc rest (assoc_remove (dh_name h) remaining) w1); [apply IH|].
      intros x2 w2. cbv beta match. destruct x2; fin.
    Qed.

    Lemma load_delegs_ext_res : forall fuel,
      rec_ext (load_delegs fx cfg srv snap cs lim fuel) (load_delegs fx cfg srv' snap cs lim fuel).
    Proof.
      induction fuel as [|f IH]; intros dk rs anc w; cbn [load_delegs]; [fin|].
      ext_bind (fetch_level fx cfg srv snap cs lim dk rs rs anc [] w)
               (fetch_level fx cfg srv' snap cs lim dk rs rs anc [] w); [apply fetch_level_ext_res|].
      intros x w1. cbv beta match. destruct x as [fetched|c a]; [|fin].
      apply second_loop_ext_res, IH.
    Qed.
  End Delegs.

  Lemma load_targets_ext_res fx cfg r sn now w :
    ext_res w (load_targets fx cfg r sn srv now w) (load_targets fx cfg r sn srv' now w).
  Proof.
    unfold load_targets. destruct (lookup name_targets (sn_meta sn)) as [m|]; [|fin].
    cbv zeta. ext_fetch. intros [file|sub]; cbv beta match; [|fin].
    destruct (f_body file) as [| | | |t]; try fin.
    destruct (negb (tg_version t =? m_version m)); [fin|].
    destruct (negb (root_verify r 2 (tg_sigs t))); [fin|].
    match goal with |- ext_res _ (if ?c then _ else _) _ => destruct c end; [fin|].
    set (lim := opt_default (m_length m) (c_max_targets_size cfg)).
    apply (check_put_ext_res fx cfg now (tg_expires t) 2 _ _ (attach fx cfg srv sn (r_cs r) lim t)
                             (attach fx cfg srv' sn (r_cs r) lim t)).
    intro w3. unfold attach.
    ext_bind (complete_role (load_delegs fx cfg srv sn (r_cs r) lim (c_fuel cfg)) (top_ancestors fx) t w3)
             (complete_role (load_delegs fx cfg srv' sn (r_cs r) lim (c_fuel cfg)) (top_ancestors fx) t w3);
      [apply complete_role_ext_res, load_delegs_ext_res|].
    intros x w4. cbv beta match. destruct x as [t'|c4 a4]; [destruct (validate t')|]; fin.
  Qed.

  Lemma cycle_ext_res fx cfg shipped now w :
    ext_res w (cycle fx cfg shipped srv now w) (cycle fx cfg shipped srv' now w).
  Proof.
    unfold cycle.
    ext_bind (load_root fx cfg shipped srv now w) (load_root fx cfg shipped srv' now w); [apply load_root_ext_res|].
    intros x1 w1. cbv beta match. destruct x1 as [r|c a]; [|fin].
    ext_bind (load_timestamp fx cfg r srv now w1) (load_timestamp fx cfg r srv' now w1); [apply load_timestamp_ext_res|].
    intros x2 w2. cbv beta match. destruct x2 as [ts|c a]; [|fin].
    ext_bind (load_snapshot fx cfg r ts srv now w2) (load_snapshot fx cfg r ts srv' now w2); [apply load_snapshot_ext_res|].
    intros x3 w3. cbv beta match. destruct x3 as [sn|c a]; [|fin].
    ext_bind (load_targets fx cfg r sn srv now w3) (load_targets fx cfg r sn srv' now w3); [apply load_targets_ext_res|].
    intros x4 w4. cbv beta match. destruct x4 as [t|c a]; fin.
  Qed.

  Definition answers_log (w' : world) : Prop := forall n, In n (w_log w') -> same_answer srv srv' n.

  Lemma ext_res_answers {A} w (out out' : res A * world) r w' :
    ext_res w out out' -> out = (r, w') -> answers_log w' -> out' = (r, w').
  Proof.
    intros (l & L & E) -> Ha. apply E. apply Forall_forall. intros n Hn. apply Ha.
    cbn [snd] in L. rewrite L. apply in_or_app. right. exact Hn.
  Qed.

  Lemma ext_res_added {A} w (out out' : res A * world) r w' l :
    ext_res w out out' -> out = (r, w') -> w_log w' = w_log w ++ l -> Forall (same_answer srv srv') l -> out' = (r, w').
  Proof.
    intros (l' & L' & E) -> L Hl. apply E. cbn [snd] in L'. rewrite L in L'. apply app_inv_head in L'. subst l'. exact Hl.
  Qed.

  Theorem root_walk_ext fx fuel cfg orig cur w r w' :
    root_walk fx fuel cfg srv orig cur w = (r, w') -> answers_log w' ->
    root_walk fx fuel cfg srv' orig cur w = (r, w').
  Proof. apply ext_res_answers with (w := w), root_walk_ext_res. Qed.

  Theorem load_root_ext fx cfg shipped now w r w' :
    load_root fx cfg shipped srv now w = (r, w') -> answers_log w' ->
    load_root fx cfg shipped srv' now w = (r, w').
  Proof. apply ext_res_answers with (w := w), load_root_ext_res. Qed.

  Theorem load_timestamp_ext fx cfg r now w res w' :
    load_timestamp fx cfg r srv now w = (res, w') -> answers_log w' ->
    load_timestamp fx cfg r srv' now w = (res, w').
  Proof. apply ext_res_answers with (w := w), load_timestamp_ext_res. Qed.

  Theorem load_snapshot_ext fx cfg r ts now w res w' :
    load_snapshot fx cfg r ts srv now w = (res, w') -> answers_log w' ->
    load_snapshot fx cfg r ts srv' now w = (res, w').
  Proof. apply ext_res_answers with (w := w), load_snapshot_ext_res. Qed.

  Theorem fetch_level_ext fx cfg snap cs lim dkeys all todo anc acc w res w' :
    fetch_level fx cfg srv snap cs lim dkeys all todo anc acc w = (res, w') -> answers_log w' ->
    fetch_level fx cfg srv' snap cs lim dkeys all todo anc acc w = (res, w').
  Proof. apply ext_res_answers with (w := w), fetch_level_ext_res. Qed.

  Theorem second_loop_ext fx cfg snap cs lim fuel anc todo remaining w res w' :
    second_loop (load_delegs fx cfg srv snap cs lim fuel) anc todo remaining w = (res, w') -> answers_log w' ->
    second_loop (load_delegs fx cfg srv' snap cs lim fuel) anc todo remaining w = (res, w').
  Proof. apply ext_res_answers with (w := w), second_loop_ext_res, load_delegs_ext_res. Qed.

  Theorem load_delegs_ext fx cfg snap cs lim fuel dk rs anc w res w' :
    load_delegs fx cfg srv snap cs lim fuel dk rs anc w = (res, w') -> answers_log w' ->
    load_delegs fx cfg srv' snap cs lim fuel dk rs anc w = (res, w').
  Proof. apply ext_res_answers with (w := w), load_delegs_ext_res. Qed.

  Theorem load_targets_ext fx cfg r sn now w res w' :
    load_targets fx cfg r sn srv now w = (res, w') -> answers_log w' ->
    load_targets fx cfg r sn srv' now w = (res, w').
  Proof. apply ext_res_answers with (w := w), load_targets_ext_res. Qed.

  Theorem cycle_ext fx cfg shipped now w res w' :
    cycle fx cfg shipped srv now w = (res, w') -> answers_log w' ->
    cycle fx cfg shipped srv' now w = (res, w').
  Proof. apply ext_res_answers with (w := w), cycle_ext_res. Qed.
End Ext.
