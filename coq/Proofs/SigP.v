(* The threshold loops of Model/Sig.v against their specification (C01): count_distinct computes the number of
   distinct authorised keys that have a valid signature, so verify_distinct accepts exactly when the threshold is met. *)
From ToughV Require Import Model.Base Model.Sig.
From Coq Require Import Permutation.

Lemma memN_In x l : memN x l = true <-> In x l.
Proof.
  unfold memN. rewrite existsb_exists. split.
  - intros (y & Hy & E). apply N.eqb_eq in E. subst. exact Hy.
  - intro H. exists x. split; [exact H|apply N.eqb_refl].
Qed.

Lemma memN_false x l : memN x l = false <-> ~ In x l.
Proof. rewrite <- memN_In. destruct (memN x l); split; congruence. Qed.

Lemma dedup_In x l : In x (dedup l) <-> In x l.
Proof.
  induction l as [|y l IH]; [reflexivity|]. cbn [dedup]. destruct (memN y l) eqn:E.
  - rewrite IH. split; [right; assumption|]. intros [->|H]; [apply memN_In, E|exact H].
  - cbn [In]. rewrite IH. reflexivity.
Qed.

Lemma dedup_NoDup l : NoDup (dedup l).
Proof.
  induction l as [|y l IH]; [constructor|]. cbn [dedup]. destruct (memN y l) eqn:E; [exact IH|].
  constructor; [|exact IH]. rewrite dedup_In. apply memN_false, E.
Qed.

Definition card (l : list N) : nat := length (dedup l).

Lemma card_NoDup l w : NoDup w -> (forall x, In x w <-> In x l) -> card l = length w.
Proof.
  intros Hw H. apply Permutation_length, NoDup_Permutation; [apply dedup_NoDup|exact Hw|].
  intro x. rewrite dedup_In. symmetry. apply H.
Qed.

Lemma card_equiv l1 l2 : (forall x, In x l1 <-> In x l2) -> card l1 = card l2.
Proof.
  intro H. apply card_NoDup; [apply dedup_NoDup|]. intro x. rewrite dedup_In. symmetry. apply H.
Qed.

Lemma card_cons_new c l : ~ In c l -> card (c :: l) = S (card l).
Proof. intro H. unfold card. cbn [dedup]. apply memN_false in H. rewrite H. reflexivity. Qed.

Lemma card_cons_old c l : In c l -> card (c :: l) = card l.
Proof. intro H. unfold card. cbn [dedup]. apply memN_In in H. rewrite H. reflexivity. Qed.

Definition neqb (c x : N) : bool := negb (x =? c).

(* [dedup] keeps the last occurrence of an element, so the head is counted by removing it from the tail *)
Lemma card_cons_filter c l : card (c :: l) = S (card (filter (neqb c) l)).
Proof.
  rewrite <- (card_cons_new c (filter (neqb c) l)).
  - apply card_equiv. intro x. cbn [In]. rewrite filter_In. unfold neqb. split.
    + intros [->|H]; [left; reflexivity|]. destruct (N.eqb_spec x c); [left; auto|right; split; auto].
    + intros [->|[H _]]; auto.
  - rewrite filter_In. unfold neqb. rewrite N.eqb_refl. intros [_ H]. discriminate.
Qed.

Lemma filter_seen_cons c seen l :
  filter (neqb c) (filter (fun x => negb (memN x seen)) l)
  = filter (fun x => negb (memN x (c :: seen))) l.
Proof.
  induction l as [|x l IH]; [reflexivity|]. cbn [filter].
  change (memN x (c :: seen)) with ((x =? c) || memN x seen). destruct (memN x seen); cbn [negb].
  - rewrite orb_true_r. exact IH.
  - rewrite orb_false_r. cbn [filter]. unfold neqb at 1. destruct (x =? c); cbn [negb]; [exact IH|].
    f_equal. exact IH.
Qed.

Section Verify.
  Variables table keyids : list N.

  Definition counted (s : sig) : bool := memN (s_claim s) keyids && sig_valid table s.
  Definition claims (sigs : list sig) : list N := map s_claim (filter counted sigs).

  Lemma counted_true s : counted s = true <-> In (s_claim s) keyids /\ sig_valid table s = true.
  Proof. unfold counted. rewrite andb_true_iff, memN_In. reflexivity. Qed.

  Lemma count_distinct_card sigs : forall seen,
    count_distinct table keyids seen sigs
    = N.of_nat (card (filter (fun c => negb (memN c seen)) (claims sigs))).
  Proof.
    induction sigs as [|s r IH]; intro seen; [reflexivity|].
    cbn [count_distinct]. unfold claims in *. cbn [filter]. fold (counted s).
    destruct (counted s); [|apply IH].
    cbn [map filter]. destruct (memN (s_claim s) seen); cbn [negb]; [apply IH|].
    rewrite IH, card_cons_filter, filter_seen_cons, Nat2N.inj_succ, N.add_1_l. reflexivity.
  Qed.

  Lemma good_signer_spec sigs k : good_signer table keyids sigs k = true <->
    In k keyids /\ exists s, In s sigs /\ s_claim s = k /\ sig_valid table s = true.
  Proof.
    unfold good_signer. rewrite andb_true_iff, memN_In, existsb_exists.
    split; intros (Hk & s & Hs & H); (split; [exact Hk|]); exists s; (split; [exact Hs|]).
    - apply andb_true_iff in H as [E Hv]. apply N.eqb_eq in E. split; assumption.
    - destruct H as [-> Hv]. rewrite N.eqb_refl. exact Hv.
  Qed.

  Lemma good_signers_NoDup sigs : NoDup (good_signers table keyids sigs).
  Proof. unfold good_signers. apply NoDup_filter, dedup_NoDup. Qed.

  Lemma good_signers_In sigs k :
    In k (good_signers table keyids sigs) <-> good_signer table keyids sigs k = true.
  Proof.
    unfold good_signers. rewrite filter_In, dedup_In. split; [intros [_ H]; exact H|].
    intro H. split; [|exact H]. apply good_signer_spec in H. exact (proj1 H).
  Qed.

  Lemma claims_In sigs k : In k (claims sigs) <-> good_signer table keyids sigs k = true.
  Proof.
    rewrite good_signer_spec. unfold claims. rewrite in_map_iff. split.
    - intros (s & Hc & Hs). apply filter_In in Hs as [Hs Hv]. apply counted_true in Hv as [Hm Hv].
      subst k. split; [exact Hm|]. exists s. repeat split; assumption.
    - intros (Hk & s & Hs & Hc & Hv). exists s. split; [exact Hc|]. apply filter_In. split; [exact Hs|].
      apply counted_true. rewrite Hc. split; assumption.
  Qed.

  Theorem count_distinct_spec sigs :
    count_distinct table keyids [] sigs = N.of_nat (length (good_signers table keyids sigs)).
  Proof.
    rewrite count_distinct_card. f_equal. apply card_NoDup; [apply good_signers_NoDup|].
    intro x. rewrite filter_In, claims_In, good_signers_In. cbn [memN existsb negb].
    split; [intro H; split; [exact H|reflexivity]|intros [H _]; exact H].
  Qed.

  Theorem verify_distinct_spec threshold sigs :
    verify_distinct table keyids threshold sigs = spec_accept table keyids threshold sigs.
  Proof. unfold verify_distinct, spec_accept. rewrite count_distinct_spec. reflexivity. Qed.

  Lemma spec_accept_intro threshold sigs ws : NoDup ws ->
    (forall k, In k ws -> In k keyids /\ exists s, In s sigs /\ s_claim s = k /\ sig_valid table s = true) ->
    threshold <= N.of_nat (length ws) -> verify_distinct table keyids threshold sigs = true.
  Proof.
    intros Hnd Hws Hthr. rewrite verify_distinct_spec. apply N.leb_le.
    assert (Hle : (length ws <= length (good_signers table keyids sigs))%nat).
    { apply NoDup_incl_length; [exact Hnd|]. intros k Hk. apply good_signers_In, good_signer_spec, Hws, Hk. }
    lia.
  Qed.

  (* what never counts: an entry that is not counted itself, or whose claimed key has a valid signature
     elsewhere in the list, can be removed without changing the set of good signers *)
  Lemma no_credit l1 s l2 :
    (counted s = true -> exists s', In s' (l1 ++ l2) /\ s_claim s' = s_claim s /\ sig_valid table s' = true) ->
    good_signers table keyids (l1 ++ s :: l2) = good_signers table keyids (l1 ++ l2).
  Proof.
    intro H. apply filter_ext. intro k. apply eq_iff_eq_true. rewrite !good_signer_spec.
    split; intros (Hk & s0 & Hs0 & Hc & Hv); (split; [exact Hk|]).
    - apply in_elt_inv in Hs0 as [<-|Hs0]; [|exists s0; auto].
      destruct H as (s' & Hs' & Hc' & Hv').
      + apply counted_true. rewrite Hc. split; assumption.
      + exists s'. rewrite Hc'. auto.
    - exists s0. split; [|auto]. rewrite in_app_iff in *. cbn [In]. tauto.
  Qed.
End Verify.

(* non-vacuity: a threshold-3 role with 4 keys accepted on 3 distinct signers among noise *)
Example accept_example :
  verify_distinct [1; 2; 3; 4; 9] [1; 2; 3; 4] 3
    [{| s_claim := 1; s_by := 1; s_ok := true |}; {| s_claim := 1; s_by := 1; s_ok := true |};
     {| s_claim := 9; s_by := 9; s_ok := true |}; {| s_claim := 2; s_by := 2; s_ok := false |};
     {| s_claim := 3; s_by := 3; s_ok := true |}; {| s_claim := 4; s_by := 4; s_ok := true |}] = true.
Proof. vm_compute. reflexivity. Qed.
