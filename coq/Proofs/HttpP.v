(* Proofs about Model/Http.v (property C18). One request is read through step_eq, serve_spec and
   on_retryable_cases; every statement about a whole fetch is an instance of the induction run_inv
   (fetch_inv_at when the position in the script matters). *)
From Coq Require Import ZifyBool.
From ToughV Require Import Model.Base Model.Http.

Lemma len_app : forall a b : bytes, len (a ++ b) = len a + len b.
Proof. intros. unfold len. rewrite app_length. lia. Qed.

Lemma len_nil : len [] = 0.
Proof. reflexivity. Qed.

Lemma skipn_len_app : forall (a b : bytes), skipn (length a) (a ++ b) = b.
Proof. induction a; intros; cbn [length app skipn]; auto. Qed.

Lemma nth_error_mid : forall (A : Type) (p : list A) a r, nth_error (p ++ a :: r) (length p) = Some a.
Proof. induction p; intros; cbn [length app nth_error]; auto. Qed.

Lemma cut_spec : forall k p ar body,
  exists b c t, cut k p ar body = RBody p ar b c /\ body = b ++ t /\ if c then t = [] else t <> [].
Proof.
  intros k p ar body.
  assert (W : exists b c t, RBody p ar body true = RBody p ar b c /\ body = b ++ t
                            /\ if c then t = [] else t <> []).
  { exists body, true, []. rewrite app_nil_r. auto. }
  destruct k as [|j|c0]; cbn [cut]; [exact W| |exact W].
  destruct (j <? len body) eqn:E; [|exact W].
  exists (firstn (N.to_nat j) body), false, (skipn (N.to_nat j) body).
  split; [reflexivity|]. split; [symmetry; apply firstn_skipn|].
  intros Z. apply (f_equal (@length _)) in Z. rewrite skipn_length in Z.
  unfold len in E. cbn [length] in Z. lia.
Qed.

Definition off (r : option N) : N := match r with Some k => k | None => 0 end.

Lemma serve_status : forall res e r c, e_kind e = Status c -> serve res e r = RStatus c.
Proof. intros res e r c K. unfold serve. rewrite K. reflexivity. Qed.

Lemma serve_body : forall res e r, is_body e = true ->
  serve res e r =
  match r with
  | Some k => if e_ar e
              then if len res <=? k then RStatus 416
                   else cut (e_kind e) true true (skipn (N.to_nat k) res)
              else cut (e_kind e) false false res
  | None => cut (e_kind e) false (e_ar e) res
  end.
Proof. intros res e r. unfold serve, is_body. destruct (e_kind e); [reflexivity..|discriminate]. Qed.

(* A body answer that is partial, or that answers a request without Range header, is the resource from the
   requested offset on, up to where it stalls; of a 200 answer to a Range request nothing is said, because it
   starts again at byte 0. *)
Lemma serve_spec : forall res e r,
  match serve res e r with
  | RStatus c =>
      e_kind e = Status c
      \/ (c = 416 /\ is_body e = true /\ e_ar e = true /\ exists k, r = Some k /\ len res <= k)
  | RBody p ar b c =>
      is_body e = true /\ ar = e_ar e /\ p = match r with Some _ => e_ar e | None => false end
      /\ (p = true \/ r = None ->
          exists t, skipn (N.to_nat (off r)) res = b ++ t /\ if c then t = [] else t <> [])
  end.
Proof.
  intros res e r. destruct (is_body e) eqn:Bd.
  - rewrite serve_body by exact Bd.
    destruct r as [k|]; [destruct (e_ar e); [destruct (len res <=? k) eqn:L|]|].
    + (* the offset lies outside the resource *)
      right. repeat split. exists k. split; [reflexivity|lia].
    + destruct (cut_spec (e_kind e) true true (skipn (N.to_nat k) res)) as (b & c & t & -> & E & C).
      repeat split. intros _. exists t. split; [exact E|exact C].
    + (* the Range header is ignored *)
      destruct (cut_spec (e_kind e) false false res) as (b & c & t & -> & _).
      repeat split. intros [H|H]; discriminate H.
    + destruct (cut_spec (e_kind e) false (e_ar e) res) as (b & c & t & -> & E & C).
      repeat split. intros _. exists t. split; [exact E|exact C].
  - unfold is_body in Bd. destruct (e_kind e) as [| |c] eqn:K; [discriminate Bd..|].
    rewrite (serve_status res e r c K). left. reflexivity.
Qed.

Definition bump (s : state) : state :=
  Build_state (s_try s + 1) (s_next s) (s_rs s) (s_out s) (s_log s).
Definition logged (s : state) : state :=
  Build_state (s_try s) (s_next s) (s_rs s) (s_out s) (s_log s ++ [range_of s]).
Definition advance (s : state) (ar : bool) (b : bytes) : state :=
  Build_state (s_try s) (s_next s + len b) (s_rs s || ar) (s_out s ++ b) (s_log s).

(* may_retry lets the client go on only from such a state: an offset other than 0 is requested only
   from a server that has announced range support *)
Definition range_inv (s : state) : Prop := s_next s <> 0 -> s_rs s = true.

Lemma range_inv_init : range_inv init.
Proof. intros Z. contradiction Z. reflexivity. Qed.

Lemma step_eq : forall fx tries res e s,
  step fx tries res e s =
  match serve res e (range_of s) with
  | RStatus c => match classify c with
                 | Retryable => on_retryable fx tries (logged s)
                 | NotFound => Done ErrNotFound (logged s)
                 | Fatal => Done ErrOther (logged s)
                 end
  | RBody p ar b c =>
      if fx_206 fx && (match range_of s with Some _ => true | None => false end) && negb p
      then Done ErrOther (logged s)
      else if c then Done EndedOk (advance (logged s) ar b)
           else on_retryable fx tries (advance (logged s) ar b)
  end.
Proof. reflexivity. Qed.

Lemma tries_left_nz : forall fx tries s,
  tries_left fx tries s <> 0 <-> (if fx_tries fx then s_try s + 1 else s_try s) < tries.
Proof. intros. unfold tries_left. lia. Qed.

Lemma on_retryable_cases : forall fx tries s,
  (on_retryable fx tries s = Again (bump s) /\ tries_left fx tries s <> 0 /\ range_inv s)
  \/ (on_retryable fx tries s = Done ErrOther (bump s)
      /\ (tries_left fx tries s = 0 \/ (s_rs s = false /\ s_next s <> 0))).
Proof.
  intros. unfold on_retryable, may_retry, range_inv. fold (bump s).
  generalize (tries_left fx tries s) (s_rs s) (s_next s). intros n b m.
  destruct (negb (n =? 0) && (b || (m =? 0))) eqn:E; [left|right]; (split; [reflexivity|]); destruct b; lia.
Qed.

Lemma on_retryable_again : forall fx tries s,
  tries_left fx tries s <> 0 -> s_rs s = true \/ s_next s = 0 ->
  on_retryable fx tries s = Again (bump s).
Proof.
  intros fx tries s T R.
  destruct (on_retryable_cases fx tries s) as [[E _]|[_ [Z|[Z1 Z2]]]]; [exact E|contradiction|].
  destruct R; congruence.
Qed.

Lemma off_range : forall s, off (range_of s) = s_next s.
Proof. intros. unfold range_of. destruct (s_next s =? 0) eqn:E; cbn [off]; lia. Qed.

Lemma range_of_some : forall s k, range_of s = Some k -> s_next s = k /\ k <> 0.
Proof. intros s k. unfold range_of. destruct (s_next s =? 0) eqn:E; intros [= <-]. lia. Qed.

Lemma step_spec : forall fx tries res e s,
  match step fx tries res e s with
  | Done o s' => s_log s' = s_log s ++ [range_of s]
                 /\ (o = ErrNotFound -> exists c, e_kind e = Status c /\ classify c = NotFound)
  | Again s' => s_log s' = s_log s ++ [range_of s]
                /\ s_try s' = s_try s + 1 /\ tries_left fx tries s <> 0 /\ range_inv s'
                /\ s_rs s' = (if is_body e then s_rs s || e_ar e else s_rs s)
  end.
Proof.
  intros. rewrite step_eq. pose proof (serve_spec res e (range_of s)) as S.
  destruct (serve res e (range_of s)) as [p ar b c|c].
  - destruct S as (-> & -> & _).
    destruct (fx_206 fx && _ && negb p); [split; [reflexivity|discriminate]|].
    destruct c; [split; [reflexivity|discriminate]|].
    destruct (on_retryable_cases fx tries (advance (logged s) (e_ar e) b)) as [[-> [W R]]|[-> _]];
      [|split; [reflexivity|discriminate]].
    repeat split; [exact W|exact R].
  - (* the 416 of a body entry is fatal *)
    assert (K : classify c <> Fatal -> e_kind e = Status c).
    { intros C. destruct S as [K|[-> _]]; [exact K|contradiction C; reflexivity]. }
    destruct (classify c) eqn:C.
    + destruct (on_retryable_cases fx tries (logged s)) as [[-> [W R]]|[-> _]];
        [|split; [reflexivity|discriminate]].
      unfold is_body. rewrite K by discriminate. repeat split; [exact W|exact R].
    + split; [reflexivity|]. intros _. exists c. split; [apply K; discriminate|exact C].
    + split; [reflexivity|discriminate].
Qed.

(* what the consumer has received is always the first next_byte bytes of the resource *)
Definition Inv (res : bytes) (s : state) : Prop :=
  s_next s = len (s_out s) /\ exists t, res = s_out s ++ t.

Lemma inv_init : forall res, Inv res init.
Proof. intros. split; [reflexivity|]. exists res. reflexivity. Qed.

Lemma inv_bump : forall res s, Inv res s -> Inv res (bump s).
Proof. intros res s H. exact H. Qed.

Lemma inv_advance : forall res s ar b t,
  Inv res s -> skipn (N.to_nat (s_next s)) res = b ++ t ->
  Inv res (advance (logged s) ar b) /\ res = (s_out s ++ b) ++ t.
Proof.
  intros res s ar b t [N [t0 E]] S. rewrite N, E in S. unfold len in S.
  rewrite Nat2N.id, skipn_len_app in S. subst t0. rewrite app_assoc in E.
  split; [split|]; cbn [advance logged s_next s_out]; [rewrite len_app, N; reflexivity|eauto|exact E].
Qed.

(* the local condition under which a step preserves the invariant: the repaired client, or a server
   entry that honours ranges whenever the client relies on them *)
Definition honoured (fx : fixes18) (e : entry) (s : state) : Prop :=
  fx_206 fx = true \/ (is_body e = true -> s_rs s = true -> e_ar e = true).

Lemma step_sound : forall fx tries res e s,
  Inv res s -> range_inv s -> honoured fx e s ->
  match step fx tries res e s with
  | Done o s' => (exists t, res = s_out s' ++ t) /\ (o = EndedOk -> s_out s' = res)
  | Again s' => Inv res s'
  end.
Proof.
  intros fx tries res e s Hi R Hon. rewrite step_eq.
  pose proof (serve_spec res e (range_of s)) as S.
  destruct (serve res e (range_of s)) as [p ar b c|c].
  - destruct (fx_206 fx && _ && negb p) eqn:G; [split; [exact (proj2 Hi)|discriminate]|].
    destruct S as (Bd & _ & P & S).
    (* an answer that was not refused is one of those serve_spec speaks of *)
    destruct S as (t & S & C).
    { revert G. rewrite P. destruct (range_of s) as [k|] eqn:Rk; [left|right; reflexivity].
      destruct Hon as [F|Hon]; [rewrite F in G; destruct (e_ar e); [reflexivity|discriminate G]|].
      apply Hon; [exact Bd|]. apply R. apply range_of_some in Rk as [<- Z]. exact Z. }
    rewrite off_range in S. destruct (inv_advance res s ar b t Hi S) as [Ha E].
    destruct c.
    + split; [exists t; exact E|]. intros _. subst t. rewrite app_nil_r in E. symmetry. exact E.
    + destruct (on_retryable_cases fx tries (advance (logged s) ar b)) as [[-> _]|[-> _]];
        [apply inv_bump, Ha|split; [exact (proj2 Ha)|discriminate]].
  - destruct (classify c); [|split; [exact (proj2 Hi)|discriminate]..].
    destruct (on_retryable_cases fx tries (logged s)) as [[-> _]|[-> _]];
      [apply inv_bump, Hi|split; [exact (proj2 Hi)|discriminate]].
Qed.

Definition retry_status (e : entry) : Prop := exists c, e_kind e = Status c /\ classify c = Retryable.

Lemma transient_cases : forall e, transient e = true ->
  retry_status e \/ (is_body e = true /\ e_ar e = true).
Proof.
  intros e. unfold transient, retry_status, is_body, classify.
  destruct (e_kind e) as [|j|c]; intros T; [discriminate|right; auto|left].
  exists c. rewrite T. auto.
Qed.

Lemma skipn_short : forall (n : N) (l b t : bytes),
  skipn (N.to_nat n) l = b ++ t -> t <> [] -> n + len b < len l.
Proof.
  intros n l b t E T. apply (f_equal (@length _)) in E. rewrite skipn_length, app_length in E.
  destruct t; [contradiction|]. cbn [length] in E. unfold len. lia.
Qed.

Lemma step_transient : forall fx tries res e s,
  range_inv s -> s_next s = 0 \/ s_next s < len res -> transient e = true -> s_try s + 1 < tries ->
  match step fx tries res e s with
  | Done o _ => o = EndedOk
  | Again s' => s_next s' = 0 \/ s_next s' < len res
  end.
Proof.
  intros fx tries res e s R P T B.
  assert (TL : tries_left fx tries s <> 0) by (apply tries_left_nz; destruct (fx_tries fx); lia).
  destruct (transient_cases e T) as [(c & K & C)|[Bd A]].
  - rewrite step_eq, (serve_status res e _ c K), C, on_retryable_again; [exact P|exact TL|].
    destruct (N.eq_dec (s_next s) 0) as [Z|Z]; [right; exact Z|left; exact (R Z)].
  - rewrite step_eq. pose proof (serve_spec res e (range_of s)) as S.
    destruct (serve res e (range_of s)) as [p ar b c|c].
    + destruct S as (_ & -> & Hp & S). rewrite A in *.
      destruct S as (t & S & C); [destruct (range_of s); auto|].
      destruct (fx_206 fx && _ && negb p) eqn:G.
      { exfalso. subst p. destruct (range_of s), (fx_206 fx); discriminate G. }
      destruct c; [reflexivity|]. rewrite off_range in S.
      rewrite on_retryable_again; [right; exact (skipn_short _ _ _ _ S C)|exact TL|].
      left. apply orb_true_r.
    + exfalso. destruct S as [K|(_ & _ & _ & k & Rk & L)].
      * unfold is_body in Bd. rewrite K in Bd. discriminate Bd.
      * apply range_of_some in Rk. lia.
Qed.

Lemma step_healthy_done : forall fx tries res dflt s, exists o s',
  step fx tries res (healthy dflt) s = Done o s'
  /\ (dflt = true -> s_next s = 0 \/ s_next s < len res -> o = EndedOk).
Proof.
  intros. unfold step, serve, healthy, range_of. cbn [e_kind e_ar cut].
  destruct (s_next s =? 0) eqn:Z.
  - rewrite andb_false_r. cbn [andb]. eexists _, _. split; reflexivity.
  - destruct dflt.
    + destruct (len res <=? s_next s) eqn:L.
      * eexists _, _. split; [reflexivity|]. lia.
      * rewrite andb_false_r. eexists _, _. split; reflexivity.
    + destruct (fx_206 fx); cbn [andb negb]; eexists _, _; (split; [reflexivity|discriminate]).
Qed.

Lemma run_inv : forall fx tries res dflt (J : list entry -> state -> Prop) (Q : outcome * state -> Prop),
  (forall e r s, J (e :: r) s ->
     match step fx tries res e s with Done o s' => Q (o, s') | Again s' => J r s' end) ->
  (forall s, J [] s ->
     match step fx tries res (healthy dflt) s with Done o s' => Q (o, s') | Again _ => True end) ->
  forall script s, J script s -> Q (run fx tries res script dflt s).
Proof.
  intros fx tries res dflt J Q Hs Hn. induction script as [|e r IH]; intros s Hi; cbn [run].
  - specialize (Hn s Hi). destruct (step_healthy_done fx tries res dflt s) as (o & s' & E & _).
    rewrite E in *. exact Hn.
  - specialize (Hs e r s Hi). destruct (step fx tries res e s); auto.
Qed.

Lemma fetch_inv_at : forall fx tries res script dflt (J : list entry -> state -> Prop)
                            (Q : outcome * state -> Prop),
  (forall p e r s, script = p ++ e :: r -> length (s_log s) = length p -> J p s ->
     match step fx tries res e s with
     | Done o s' => length (s_log s') = S (length p) -> Q (o, s')
     | Again s' => J (p ++ [e]) s'
     end) ->
  (forall s, length (s_log s) = length script -> J script s ->
     match step fx tries res (healthy dflt) s with Done o s' => Q (o, s') | Again _ => True end) ->
  J [] init -> Q (fetch fx tries res script dflt).
Proof.
  intros fx tries res script dflt J Q Hs Hn Hi. unfold fetch.
  apply run_inv with (J := fun r s => exists p, script = p ++ r /\ length (s_log s) = length p /\ J p s).
  - intros e r s (p & E & L & H). specialize (Hs p e r s E L H).
    pose proof (step_spec fx tries res e s) as SP.
    destruct (step fx tries res e s) as [o s'|s']; destruct SP as (SL & _).
    + apply Hs. rewrite SL, last_length, L. reflexivity.
    + exists (p ++ [e]). rewrite <- app_assoc, SL, !last_length, L. auto.
  - intros s (p & E & L & H). rewrite app_nil_r in E. subst p. exact (Hn s L H).
  - exists []. auto.
Qed.

Lemma stable_cons : forall seen e r dflt, ranges_stable seen (e :: r) dflt = true ->
  (is_body e = true -> seen = true -> e_ar e = true)
  /\ ranges_stable (if is_body e then seen || e_ar e else seen) r dflt = true.
Proof.
  intros seen e r dflt. cbn [ranges_stable].
  destruct (is_body e); [|split; [discriminate|assumption]].
  intros [H1 H2]%andb_prop. split; [intros _ ->; exact H1|exact H2].
Qed.

(* C18_prefix, C18_complete and their _partial forms: the repaired client against any server, and
   the code as it is (no 206 check) against a server that keeps honouring ranges once announced *)
Lemma fetch_sound : forall fx tries res script dflt,
  fx_206 fx = true \/ ranges_stable false script dflt = true ->
  let r := fetch fx tries res script dflt in
  (exists tail, res = yielded r ++ tail) /\ (result r = EndedOk -> yielded r = res).
Proof.
  intros fx tries res script dflt H r. subst r. unfold fetch, yielded, result.
  apply run_inv with
    (J := fun r s => Inv res s /\ range_inv s
                     /\ (fx_206 fx = true \/ ranges_stable (s_rs s) r dflt = true)).
  - intros e r s (Hi & R & St).
    assert (Hon : honoured fx e s).
    { destruct St as [F|St]; [left; exact F|right; apply (stable_cons _ _ _ _ St)]. }
    pose proof (step_sound fx tries res e s Hi R Hon) as SS.
    pose proof (step_spec fx tries res e s) as SP.
    destruct (step fx tries res e s) as [o s'|s']; [exact SS|].
    destruct SP as (_ & _ & _ & R' & Rs). split; [exact SS|]. split; [exact R'|].
    destruct St as [F|St]; [left; exact F|right]. rewrite Rs. apply (stable_cons _ _ _ _ St).
  - intros s (Hi & R & St).
    assert (Hon : honoured fx (healthy dflt) s).
    { destruct St as [F|St]; [left; exact F|right]. intros _ Rs. rewrite Rs in St. exact St. }
    pose proof (step_sound fx tries res (healthy dflt) s Hi R Hon) as SS.
    destruct (step fx tries res (healthy dflt) s); [exact SS|exact I].
  - split; [apply inv_init|]. split; [exact range_inv_init|exact H].
Qed.

Lemma fetch_bounded : forall fx tries res script dflt, fx_tries fx = true ->
  N.of_nat (length (requests (fetch fx tries res script dflt))) <= N.max 1 tries.
Proof.
  intros fx tries res script dflt F. unfold requests, fetch.
  apply run_inv with
    (J := fun _ s => s_try s = N.of_nat (length (s_log s)) /\ s_try s < N.max 1 tries).
  - intros e r s [T B]. pose proof (step_spec fx tries res e s) as SP.
    destruct (step fx tries res e s) as [o s'|s']; destruct SP as (L & SP); cbn [snd];
      rewrite L, last_length; [lia|].
    destruct SP as (T' & W & _). apply tries_left_nz in W. rewrite F in W. lia.
  - intros s [T B]. pose proof (step_spec fx tries res (healthy dflt) s) as SP.
    destruct (step fx tries res (healthy dflt) s); [|exact I].
    destruct SP as (L & _). cbn [snd]. rewrite L, last_length. lia.
  - cbn [init s_try s_log length]. lia.
Qed.

(* before the repair of may_retry (F11), a server that keeps answering 5xx receives tries + 1
   requests *)
Lemma fetch_retryable_all : forall fx tries res script dflt,
  fx_tries fx = false -> Forall retry_status script -> N.of_nat (length script) = tries + 1 ->
  length (requests (fetch fx tries res script dflt)) = length script.
Proof.
  intros fx tries res script dflt F Hs Len. unfold requests, fetch.
  apply run_inv with
    (J := fun r s => Forall retry_status r /\ s_next s = 0 /\ s_try s <= tries
                     /\ s_try s + N.of_nat (length r) = tries + 1
                     /\ (length (s_log s) + length r = length script)%nat).
  - intros e r s (Fr & Z & B & T & L). apply Forall_cons_iff in Fr as [(c & K & C) Fr].
    rewrite step_eq, (serve_status res e _ c K), C. cbn [length] in T, L.
    destruct (on_retryable_cases fx tries (logged s)) as [[-> [W _]]|[-> [W|[_ W]]]].
    + apply tries_left_nz in W. rewrite F in W. cbn [logged bump s_try s_next s_log] in *.
      rewrite last_length. repeat split; [exact Fr|exact Z|lia..].
    + unfold tries_left in W. rewrite F in W. cbn [snd bump logged s_log s_try] in *.
      rewrite last_length. lia.
    + contradiction.
  - intros s (_ & _ & B & T & _). cbn [length] in T. lia.
  - cbn [init s_try s_next s_log length]. repeat split; auto; lia.
Qed.

(* C18_recovers: transient failures within the retry budget do not keep the fetch from ending well,
   and a transient script keeps honouring ranges, so that fetch_sound says the delivery is complete *)
Lemma fetch_ends_ok : forall fx tries res script,
  Forall (fun e => transient e = true) script -> N.of_nat (length script) < tries ->
  result (fetch fx tries res script true) = EndedOk.
Proof.
  intros fx tries res script F B. unfold result, fetch.
  apply run_inv with
    (J := fun r s => range_inv s /\ (s_next s = 0 \/ s_next s < len res)
                     /\ Forall (fun e => transient e = true) r
                     /\ s_try s + N.of_nat (length r) < tries).
  - clear. intros e r s (R & P & F & B). apply Forall_cons_iff in F as [T F]. cbn [length] in B.
    assert (B1 : s_try s + 1 < tries) by lia.
    pose proof (step_spec fx tries res e s) as SP.
    pose proof (step_transient fx tries res e s R P T B1) as ST.
    destruct (step fx tries res e s) as [o s'|s']; [exact ST|].
    destruct SP as (_ & T' & _ & R' & _). split; [exact R'|]. split; [exact ST|]. split; [exact F|]. lia.
  - clear. intros s (_ & P & _).
    destruct (step_healthy_done fx tries res true s) as (o & s' & -> & Ok). exact (Ok eq_refl P).
  - split; [exact range_inv_init|]. split; [left; reflexivity|]. split; [exact F|exact B].
Qed.

Lemma transient_stable : forall script, Forall (fun e => transient e = true) script ->
  forall seen, ranges_stable seen script true = true.
Proof.
  induction 1 as [|e r T _ IH]; intros seen; cbn [ranges_stable]; [destruct seen; reflexivity|].
  destruct (transient_cases e T) as [(c & K & _)|[-> ->]].
  - unfold is_body. rewrite K. apply IH.
  - rewrite IH. destruct seen; reflexivity.
Qed.

Definition announced_before (all : list entry) (n : nat) : Prop :=
  exists j e, (j < n)%nat /\ nth_error all j = Some e /\ is_body e = true /\ e_ar e = true.

Definition log_ok (all : list entry) (l : list (option N)) : Prop :=
  forall i k, nth_error l i = Some (Some k) -> 0 < k /\ announced_before all i.

Lemma log_ok_snoc : forall all s,
  log_ok all (s_log s) -> range_inv s ->
  (s_rs s = true -> announced_before all (length (s_log s))) ->
  log_ok all (s_log s ++ [range_of s]).
Proof.
  intros all s L R A i k H. destruct (Nat.lt_ge_cases i (length (s_log s))) as [Lt|Ge].
  - rewrite nth_error_app1 in H by exact Lt. exact (L i k H).
  - rewrite nth_error_app2 in H by exact Ge.
    destruct (i - length (s_log s))%nat as [|[|m]] eqn:D; [|discriminate H..].
    injection H as H. apply range_of_some in H as [N Z].
    replace i with (length (s_log s)) by lia. split; [lia|]. apply A, R. lia.
Qed.

Lemma fetch_log_ok : forall fx tries res script dflt,
  log_ok script (requests (fetch fx tries res script dflt)).
Proof.
  intros. unfold requests.
  apply fetch_inv_at with
    (J := fun p s => range_inv s /\ (s_rs s = true -> announced_before script (length p))
                     /\ log_ok script (s_log s)).
  - intros p e r s E Len (R & A & L).
    pose proof (log_ok_snoc script s L R) as L'. rewrite Len in L'. specialize (L' A).
    pose proof (step_spec fx tries res e s) as SP.
    destruct (step fx tries res e s) as [o s'|s']; destruct SP as (SL & SP); cbn [snd];
      rewrite SL; [intros _; exact L'|].
    destruct SP as (_ & _ & R' & Rs). split; [exact R'|]. split; [|exact L'].
    (* range support was seen before, or is announced by this very entry *)
    rewrite Rs, last_length, E. intros H. destruct (s_rs s).
    + destruct (A eq_refl) as (j & e' & Lt & X). rewrite E in X. exists j, e'.
      split; [apply Nat.lt_lt_succ_r, Lt|exact X].
    + destruct (is_body e) eqn:Bd; [|discriminate H]. exists (length p), e.
      rewrite nth_error_mid. auto.
  - intros s Len (R & A & L). pose proof (log_ok_snoc script s L R) as L'.
    rewrite Len in L'. specialize (L' A).
    pose proof (step_spec fx tries res (healthy dflt) s) as SP.
    destruct (step fx tries res (healthy dflt) s); [|exact I].
    destruct SP as (SL & _). cbn [snd]. rewrite SL. exact L'.
  - split; [exact range_inv_init|]. split; [discriminate|]. intros [|i] k H; discriminate H.
Qed.

Lemma classify_fatal : forall c,
  c < 500 \/ 600 <= c -> c <> 403 -> c <> 404 -> c <> 410 -> classify c = Fatal.
Proof.
  intros c H1 H2 H3 H4. unfold classify.
  destruct ((500 <=? c) && (c <? 600)) eqn:E; [lia|].
  destruct ((c =? 403) || (c =? 404) || (c =? 410)) eqn:E'; [lia|reflexivity].
Qed.

Lemma classify_notfound : forall c, classify c = NotFound <-> (c = 403 \/ c = 404 \/ c = 410).
Proof.
  intros c. unfold classify. split.
  - destruct ((500 <=? c) && (c <? 600)) eqn:E; [discriminate|].
    destruct ((c =? 403) || (c =? 404) || (c =? 410)) eqn:E'; [lia|discriminate].
  - intros [ -> | [ -> | -> ] ]; reflexivity.
Qed.

(* C18_classification: an entry that ends the fetch with outcome o whenever it is reached *)
Lemma fetch_stops_at : forall fx tries res dflt pre e rest o,
  (forall s, exists s', step fx tries res e s = Done o s') ->
  let r := fetch fx tries res (pre ++ e :: rest) dflt in
  (length pre < length (requests r))%nat -> result r = o /\ length (requests r) = S (length pre).
Proof.
  intros fx tries res dflt pre e rest o He r. subst r. unfold result, requests.
  apply fetch_inv_at with (J := fun p _ => (length p <= length pre)%nat).
  - intros p a r s E Len Le. apply Nat.lt_eq_cases in Le as [Lt|Eq].
    + destruct (step fx tries res a s) as [o' s'|s']; cbn [fst snd]; [lia|].
      rewrite last_length. lia.
    + (* the entry reached is e *)
      pose proof (nth_error_mid _ p a r) as X. rewrite <- E, Eq, nth_error_mid in X.
      injection X as ->. destruct (He s) as [s' ->]. cbn [fst snd]. intros L _.
      split; [reflexivity|]. rewrite L, Eq. reflexivity.
  - intros s _ Le. rewrite app_length in Le. cbn [length] in Le. lia.
  - cbn [length]. lia.
Qed.

Lemma fetch_notfound_inv : forall fx tries res script dflt,
  result (fetch fx tries res script dflt) = ErrNotFound ->
  exists pre e rest c, script = pre ++ e :: rest /\ e_kind e = Status c /\ classify c = NotFound
    /\ length (requests (fetch fx tries res script dflt)) = S (length pre).
Proof.
  intros fx tries res script dflt. unfold result, requests.
  apply fetch_inv_at with (J := fun _ _ => True).
  - intros p e r s E _ _. pose proof (step_spec fx tries res e s) as SP.
    destruct (step fx tries res e s) as [o s'|s']; [|exact I].
    cbn [fst snd]. intros L ->. destruct SP as (_ & c & K & C); [reflexivity|].
    exists p, e, r, c. auto.
  - intros s _ _. pose proof (step_spec fx tries res (healthy dflt) s) as SP.
    destruct (step fx tries res (healthy dflt) s) as [o s'|s']; [|exact I].
    cbn [fst]. intros ->. destruct SP as (_ & c & K & _); [reflexivity|discriminate K].
  - exact I.
Qed.
