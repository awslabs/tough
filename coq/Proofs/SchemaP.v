(* Proofs about Model/Schema.v: what is used is what was signed, role tags keep roles apart, nothing
   is lost of a document whose every level is covered (and what is lost otherwise: finding F7),
   member order does not matter. *)
From Coq Require Import String.
From ToughV Require Import Model.Base Model.Json Model.CJson Model.Keys Model.TName Model.Schema
     Proofs.BaseP Proofs.CJsonP Proofs.CJsonInjP.
From Coq Require Import Permutation.

Lemma map_opt_Some {A B} (f : A -> option B) l l' : map_opt f l = Some l' <-> map f l = map Some l'.
Proof.
  split.
  - revert l'. induction l as [|x l IH]; cbn [map_opt map]; intro l'; [intros [= <-]; reflexivity|].
    destruct (f x) as [y|]; [|discriminate]. destruct (map_opt f l) as [t|]; [|discriminate].
    intros [= <-]. cbn [map]. rewrite <- (IH t eq_refl). reflexivity.
  - revert l. induction l' as [|y l' IH]; intros [|x l]; cbn [map_opt map]; try discriminate; [reflexivity|].
    intros [= -> E]. rewrite (IH _ E). reflexivity.
Qed.

Lemma map_opt_perm {A B} (f : A -> option B) a b da : Permutation a b ->
  map_opt f a = Some da -> exists db, map_opt f b = Some db /\ Permutation da db.
Proof.
  intros P H. apply map_opt_Some in H. apply (Permutation_map f) in P. rewrite H in P.
  apply Permutation_sym, Permutation_map_inv in P as (db & E & P).
  exists db. split; [apply map_opt_Some, E|exact P].
Qed.

Lemma map_opt_Forall2 {A B} (f : A -> option B) (R : A -> B -> Prop) l :
  Forall (fun x => exists y, f x = Some y /\ R x y) l -> exists l', map_opt f l = Some l' /\ Forall2 R l l'.
Proof.
  induction 1 as [|x l (y & Fx & Rx) _ (l' & Ml & F2)]; cbn [map_opt].
  - exists []. split; [reflexivity|constructor].
  - rewrite Fx, Ml. exists (y :: l'). split; [reflexivity|constructor; assumption].
Qed.

Lemma map_opt_snd_Forall2 (f : jv -> option jv) (R : jv -> jv -> Prop) m :
  Forall (fun kv => exists y, f (snd kv) = Some y /\ R (snd kv) y) m ->
  exists m', map_opt_snd f m = Some m' /\ Forall2 (fun a b => fst a = fst b /\ R (snd a) (snd b)) m m'.
Proof.
  intro H. apply map_opt_Forall2. eapply Forall_impl; [|exact H].
  intros kv (y & E & Ry). rewrite E. exists (fst kv, y). auto.
Qed.

Lemma nodup_bytes_iff l : nodup_bytes l = true <-> NoDup l.
Proof.
  induction l as [|x l IH]; cbn [nodup_bytes]; [split; [constructor|reflexivity]|].
  rewrite andb_true_iff, negb_true_iff, <- not_true_iff_false, mem_bytes_In, IH. symmetry. apply NoDup_cons_iff.
Qed.

Lemma find_assoc_Forall2 {V W} (R : V -> W -> Prop) n (m1 : list (bytes * V)) (m2 : list (bytes * W)) :
  Forall2 (fun a b => fst a = fst b /\ R (snd a) (snd b)) m1 m2 ->
  match find_assoc n m1, find_assoc n m2 with
  | Some v1, Some v2 => R v1 v2
  | None, None => True
  | _, _ => False
  end.
Proof.
  induction 1 as [|[k1 x1] [k2 x2] m1 m2 [E Rx] F IH]; cbn [find_assoc]; [exact I|].
  cbn [fst snd] in *. subst k2. destruct (bytes_eqb n k1); [exact Rx|exact IH].
Qed.

Lemma Forall2_keys {V W} (R : V -> W -> Prop) (m1 : list (bytes * V)) (m2 : list (bytes * W)) :
  Forall2 (fun a b => fst a = fst b /\ R (snd a) (snd b)) m1 m2 -> map fst m2 = map fst m1.
Proof. induction 1 as [|a b m1 m2 [E _] F IH]; [reflexivity|]. cbn [map]. rewrite E, IH. reflexivity. Qed.

(* the formatter of the implementation computes the specification (C11), ASCII documents *)
Lemma canon_is_cs v : canon v = cs v.
Proof. unfold canon. apply canon_impl_is_spec; auto. Qed.

Lemma accepts_spec sch b j :
  accepts sch b j = true <-> exists r, project sch j = Some r /\ cs r = Some b.
Proof.
  unfold accepts. destruct (project sch j) as [r|]; [|split; [discriminate|intros (r & E & _); discriminate]].
  rewrite canon_is_cs. unfold obytes_eqb. split.
  - intro H. exists r. split; [reflexivity|]. destruct (cs r) as [x|]; [|discriminate].
    apply bytes_eqb_eq in H. congruence.
  - intros (r' & [= <-] & ->). apply bytes_eqb_refl.
Qed.

(* induction on schemas: the six kinds of leaves go together *)
Definition leaf (s : schema) : Prop :=
  match s with SStr | SBool | SU64 _ | SHex | SDate | SEnum _ => True | _ => False end.

Definition scalar (j : jv) : Prop := match j with JArr _ | JObj _ => False | _ => True end.

Section schema_ind2.
  Variable P : schema -> Prop.
  Hypothesis HAny : P SAny.
  Hypothesis HLeaf : forall s, leaf s -> P s.
  Hypothesis HArr : forall e, P e -> P (SArr e).
  Hypothesis HMap : forall k v, P v -> P (SMap k v).
  Hypothesis HObj : forall tag fields r, Forall (fun f => P (snd (snd f))) fields -> P (SObj tag fields r).
  Fixpoint schema_ind2 (s : schema) : P s :=
    match s with
    | SAny => HAny
    | SArr e => HArr e (schema_ind2 e)
    | SMap k v => HMap k v (schema_ind2 v)
    | SObj tag fields r =>
        HObj tag fields r
             ((fix go (fs : list (bytes * (fkind * schema))) : Forall (fun f => P (snd (snd f))) fs :=
                 match fs with
                 | [] => Forall_nil _
                 | f :: t => Forall_cons _ (schema_ind2 (snd (snd f))) (go t)
                 end) fields)
    | s => HLeaf s I
    end.
End schema_ind2.

Lemma leaf_project s j r : leaf s -> project s j = Some r -> r = j /\ scalar j.
Proof.
  destruct s; try contradiction; intros _; destruct j; cbn [project]; try discriminate.
  - intros [= <-]. split; [reflexivity|exact I].
  - intros [= <-]. split; [reflexivity|exact I].
  - destruct (in_u64 nonzero z); [|discriminate]. intros [= <-]. split; [reflexivity|exact I].
  - destruct (hex_decode s); [|discriminate]. intros [= <-]. split; [reflexivity|exact I].
  - destruct (date_ok s); [|discriminate]. intros [= <-]. split; [reflexivity|exact I].
  - destruct (mem_bytes s allowed); [|discriminate]. intros [= <-]. split; [reflexivity|exact I].
Qed.

Lemma leaf_covered s j : leaf s ->
  well_covered s j = match project s j with Some _ => true | None => false end.
Proof. destruct s; try contradiction; reflexivity. Qed.

(* the nested loops of [project] and [well_covered], under names; as there, the members come first *)
Section Loops.
  Variable m : members.
  Fixpoint known_out_s (fs : list (bytes * (fkind * schema))) : option members :=
    match fs with
    | [] => Some []
    | f :: t =>
        match field_out (project (snd (snd f))) (fst (snd f)) (fst f) m, known_out_s t with
        | Some a, Some b => Some (a ++ b)
        | _, _ => None
        end
    end.
  Fixpoint fields_covered_s (fs : list (bytes * (fkind * schema))) : bool :=
    match fs with
    | [] => true
    | f :: t => field_covered (well_covered (snd (snd f))) (fst (snd f)) (fst f) m
                && fields_covered_s t
    end.
End Loops.
Definition known_out fs m := known_out_s m fs.
Definition fields_covered fs m := fields_covered_s m fs.

Lemma known_out_cons f t m : known_out (f :: t) m =
  match field_out (project (snd (snd f))) (fst (snd f)) (fst f) m, known_out t m with
  | Some a, Some b => Some (a ++ b)
  | _, _ => None
  end.
Proof. reflexivity. Qed.
Lemma fields_covered_cons f t m : fields_covered (f :: t) m =
  field_covered (well_covered (snd (snd f))) (fst (snd f)) (fst f) m
  && fields_covered t m.
Proof. reflexivity. Qed.

Lemma project_obj tag fields r m :
  project (SObj tag fields r) (JObj m) =
  match known_out fields m, rest_out r (map fst fields) m with
  | Some known, Some rst => Some (JObj (tag_member tag ++ known ++ rst))
  | _, _ => None
  end.
Proof. reflexivity. Qed.

Lemma project_obj_inv tag fields r j out : project (SObj tag fields r) j = Some out ->
  exists m known rst, j = JObj m /\ known_out fields m = Some known
                      /\ rest_out r (map fst fields) m = Some rst /\ out = JObj (tag_member tag ++ known ++ rst).
Proof.
  destruct j as [| | | | | |m]; try discriminate. rewrite project_obj.
  destruct (known_out fields m) as [known|] eqn:K; [|discriminate].
  destruct (rest_out r (map fst fields) m) as [rst|] eqn:R; [|discriminate]. intros [= <-].
  exists m, known, rst. auto.
Qed.

Lemma well_covered_obj tag fields r m :
  well_covered (SObj tag fields r) (JObj m) = true <->
  NoDup (map fst m) /\ NoDup (map fst fields) /\ ~ In k_type (map fst fields)
  /\ fields_covered fields m = true /\ rest_covered tag r (map fst fields) m = true.
Proof.
  change (well_covered (SObj tag fields r) (JObj m))
    with (nodup_bytes (map fst m) && nodup_bytes (map fst fields) && negb (mem_bytes k_type (map fst fields))
          && fields_covered fields m && rest_covered tag r (map fst fields) m).
  rewrite !andb_true_iff, !nodup_bytes_iff, negb_true_iff, <- not_true_iff_false, mem_bytes_In. tauto.
Qed.

Lemma field_out_inv pr kind n m a : field_out pr kind n m = Some a ->
  a = [] \/ exists v v', occurrences n m = [v] /\ pr v = Some v' /\ a = [(n, v')].
Proof.
  unfold field_out. destruct (occurrences n m) as [|v [|]]; [| |discriminate].
  - destruct kind; [discriminate| |]; intros [= <-]; left; reflexivity.
  - destruct (pr v) as [v'|] eqn:Pv.
    + (* Some [] for the null of an FOpt field or the empty object of an FDefEmpty one, else Some [(n, v')] *)
      destruct kind, v as [| | | | | |[|]]; intros [= <-];
        (left; reflexivity) || (right; eexists _, _; split; [reflexivity|split; [exact Pv|reflexivity]]).
    + (* Some [] for the null of an FOpt field, else None *)
      destruct kind, v; try discriminate. intros [= <-]. left. reflexivity.
Qed.

Lemma field_out_absent pr kind n m : occurrences n m = [] -> kind <> FReq -> field_out pr kind n m = Some [].
Proof. unfold field_out. intros -> H. destruct kind; [contradiction| |]; reflexivity. Qed.

Lemma field_out_present pr kind n m v v' : occurrences n m = [v] -> pr v = Some v' ->
  kind_ok kind v = true -> field_out pr kind n m = Some [(n, v')].
Proof.
  unfold field_out. intros -> Hp K.
  destruct kind, v as [| | | | | |[|]]; try discriminate K; rewrite Hp; reflexivity.
Qed.

Lemma known_out_keys fs m known : known_out fs m = Some known ->
  forall e, In e known -> In (fst e) (map fst fs).
Proof.
  revert known; induction fs as [|f fs IH]; intros known H e He.
  - injection H as <-. contradiction.
  - rewrite known_out_cons in H. destruct (field_out _ _ _ m) as [a|] eqn:Fa; [|discriminate].
    destruct (known_out fs m) as [b|]; [|discriminate]. injection H as <-.
    apply in_app_or in He as [He|He]; [|right; exact (IH _ eq_refl e He)].
    left. apply field_out_inv in Fa as [->|(v & v' & _ & _ & ->)]; [contradiction|].
    destruct He as [<-|[]]. reflexivity.
Qed.

(* role tags: the retained content of a tagged type starts with the type's own tag, and nothing
   else in it is named "_type" *)
Definition tagged (s : schema) (t : bytes) : Prop :=
  exists fields r, s = SObj (Some t) fields r
                   /\ mem_bytes k_type (map fst fields) = false /\ r <> RKeep false.

Lemma rest_out_no_type r names m rst : r <> RKeep false -> rest_out r names m = Some rst ->
  ~ In k_type (map fst rst).
Proof.
  intros Hr H. unfold rest_out in H. destruct r as [|[|]|].
  - injection H as <-. intros [].
  - injection H as <-. intro Hin. apply in_map_iff in Hin as (e & Ee & Hin).
    apply filter_In in Hin as [_ Hf]. rewrite Ee, bytes_eqb_refl in Hf. discriminate.
  - contradiction.
  - destruct (find _ _) as [kv|] eqn:F; [|discriminate].
    destruct (str_array (snd kv)); [|discriminate]. injection H as <-. cbn [map fst].
    apply find_some in F as [_ F]. intros [E|[]]. rewrite E in F. discriminate F.
Qed.

Lemma project_tagged_shape s t j out : tagged s t -> project s j = Some out ->
  exists rest, out = JObj ((k_type, JStr t) :: rest) /\ ~ In k_type (map fst rest).
Proof.
  intros (fields & r & -> & Hf & Hr) H. apply project_obj_inv in H as (m & known & rst & -> & K & R & ->).
  exists (known ++ rst). split; [reflexivity|].
  rewrite map_app. intro Hin. apply in_app_or in Hin as [Hin|Hin].
  - apply in_map_iff in Hin as (e & Ee & Hin). pose proof (known_out_keys _ _ _ K e Hin) as Hk.
    rewrite Ee in Hk. apply mem_bytes_In in Hk. congruence.
  - exact (rest_out_no_type _ _ _ _ Hr R Hin).
Qed.

Theorem tagged_disjoint s1 s2 t1 t2 b j1 j2 :
  tagged s1 t1 -> tagged s2 t2 -> t1 <> t2 ->
  accepts s1 b j1 = true -> accepts s2 b j2 = true -> False.
Proof.
  intros T1 T2 Ne H1 H2.
  apply accepts_spec in H1 as (r1 & E1 & C1). apply accepts_spec in H2 as (r2 & E2 & C2).
  destruct (project_tagged_shape _ _ _ _ T1 E1) as (rest1 & -> & N1).
  destruct (project_tagged_shape _ _ _ _ T2 E2) as (rest2 & -> & N2).
  pose proof (cs_obj_head_member _ _ _ _ _ _ N1 N2 C1 C2) as E. cbn [canon_spec] in E.
  apply Ne, quote_inj. congruence.
Qed.

Definition tag_of (s : schema) : bytes := match s with SObj (Some t) _ _ => t | _ => [] end.

Lemma role_schemas_tagged s : In s role_schemas -> tagged s (tag_of s).
Proof.
  intros [<-|[<-|[<-|[<-|[]]]]]; (eexists _, _; split; [reflexivity|split; [reflexivity|discriminate]]).
Qed.

Lemma role_tags_distinct : NoDup (map tag_of role_schemas).
Proof. apply nodup_bytes_iff. reflexivity. Qed.

Lemma find_none_occurrences n m : find_assoc n m = None -> occurrences n m = [].
Proof.
  unfold occurrences. induction m as [|[k v] m IH]; cbn [find_assoc filter map fst]; [reflexivity|].
  destruct (bytes_eqb n k); [discriminate|exact IH].
Qed.

Lemma find_some_occurrences n m v : NoDup (map fst m) -> find_assoc n m = Some v -> occurrences n m = [v].
Proof.
  unfold occurrences. induction m as [|[k x] m IH]; cbn [find_assoc filter map fst]; [discriminate|].
  intros N H. apply NoDup_cons_iff in N as [Nk Nm]. destruct (bytes_eqb_spec n k) as [->|_].
  - injection H as ->. cbn [map snd]. f_equal. apply (find_none_occurrences k m), find_assoc_notin, Nk.
  - apply IH; assumption.
Qed.

Definition not_named (n : bytes) (kv : bytes * jv) : bool := negb (bytes_eqb (fst kv) n).

Lemma filter_absent n m : find_assoc n m = None -> filter (not_named n) m = m.
Proof.
  induction m as [|[k v] m IH]; cbn [find_assoc filter]; [reflexivity|]. unfold not_named at 1. cbn [fst].
  rewrite (bytes_eqb_sym k n). destruct (bytes_eqb n k); [discriminate|]. cbn [negb]. intro H. f_equal. apply IH, H.
Qed.

Lemma perm_extract n m v : NoDup (map fst m) -> find_assoc n m = Some v ->
  Permutation m ((n, v) :: filter (not_named n) m).
Proof.
  induction m as [|[k x] m IH]; cbn [find_assoc filter map fst]; [discriminate|].
  intros N H. apply NoDup_cons_iff in N as [Nk Nm]. unfold not_named at 1. cbn [fst].
  rewrite (bytes_eqb_sym k n). destruct (bytes_eqb_spec n k) as [->|_]; cbn [negb].
  - injection H as ->. rewrite filter_absent by (apply find_assoc_notin, Nk). reflexivity.
  - eapply perm_trans; [apply perm_skip, IH; assumption|apply perm_swap].
Qed.

(* a member taken out of the unknown ones and written back under the same name, with a value of the
   same canonical form *)
Lemma cmap_reinsert n v v' known U : NoDup (map fst U) -> find_assoc n U = Some v -> cs v' = cs v ->
  Permutation (cm ((n, v') :: known ++ filter (not_named n) U)) (cm (known ++ U)).
Proof.
  intros NU FU Cv. unfold cmap. cbn [map fst snd]. rewrite !map_app, Cv.
  eapply perm_trans; [apply Permutation_middle|]. apply Permutation_app_head, Permutation_sym.
  exact (Permutation_map _ (perm_extract n U v NU FU)).
Qed.

Lemma unknown_nil m : unknown_members [] m = m.
Proof. unfold unknown_members. induction m as [|kv m IH]; cbn [filter mem_bytes negb]; [reflexivity|]. f_equal. exact IH. Qed.

Lemma unknown_cons n names m :
  unknown_members (n :: names) m = filter (not_named n) (unknown_members names m).
Proof.
  unfold unknown_members. induction m as [|kv m IH]; [reflexivity|]. cbn [filter].
  change (mem_bytes (fst kv) (n :: names)) with (bytes_eqb (fst kv) n || mem_bytes (fst kv) names).
  rewrite IH.
  destruct (bytes_eqb (fst kv) n) eqn:E, (mem_bytes (fst kv) names); cbn [orb negb filter];
    unfold not_named; rewrite ?E; reflexivity.
Qed.

Lemma find_unknown n names m : ~ In n names ->
  find_assoc n (unknown_members names m) = find_assoc n m.
Proof.
  intro Nn. unfold unknown_members. induction m as [|[k v] m IH]; [reflexivity|]. cbn [filter find_assoc fst].
  destruct (mem_bytes k names) eqn:Mk; cbn [negb find_assoc]; [|rewrite IH; reflexivity].
  destruct (bytes_eqb_spec n k) as [->|_]; [|exact IH]. apply mem_bytes_In in Mk. contradiction.
Qed.

Definition lossless_at (s : schema) : Prop :=
  forall j, well_covered s j = true -> exists r, project s j = Some r /\ cs r = cs j.

(* C12_lossless: the members that project writes are, in the view of the canonical form, a
   permutation of the members it read *)
Lemma known_out_lossless fields : Forall (fun f => lossless_at (snd (snd f))) fields ->
  forall m, NoDup (map fst m) -> NoDup (map fst fields) -> fields_covered fields m = true ->
  exists known, known_out fields m = Some known
                /\ Permutation (cm (known ++ unknown_members (map fst fields) m)) (cm m).
Proof.
  induction 1 as [|[n [kind s]] fields Hf Hfs IH]; intros m Nm Nf C.
  - exists []. split; [reflexivity|]. cbn [map app]. rewrite unknown_nil. reflexivity.
  - cbn [map fst] in Nf. apply NoDup_cons_iff in Nf as [Nn Nfs].
    rewrite fields_covered_cons in C. cbn [fst snd] in C. apply andb_true_iff in C as [Cf Cfs].
    destruct (IH m Nm Nfs Cfs) as (known_t & Kt & Pt). rewrite known_out_cons. cbn [fst snd map]. rewrite Kt.
    rewrite unknown_cons. set (U := unknown_members (map fst fields) m) in *.
    assert (FU : find_assoc n U = find_assoc n m) by (apply find_unknown, Nn).
    unfold field_covered in Cf. destruct (find_assoc n m) as [v|] eqn:Fn.
    + apply andb_true_iff in Cf as [Wv Ck]. destruct (Hf v Wv) as (v' & Pv & Cv). cbn [snd] in Pv, Cv.
      rewrite (field_out_present _ kind n m v v' (find_some_occurrences _ _ _ Nm Fn) Pv Ck).
      eexists. split; [reflexivity|]. eapply perm_trans; [|exact Pt].
      apply (cmap_reinsert n v v'); [apply (NoDup_map_filter fst), Nm|exact FU|exact Cv].
    + rewrite (field_out_absent _ kind n m (find_none_occurrences _ _ Fn)) by (intros ->; discriminate).
      eexists. split; [reflexivity|]. cbn [app]. rewrite filter_absent by exact FU. exact Pt.
Qed.

Lemma str_array_id v v' : str_array v = Some v' -> v' = v.
Proof. destruct v; cbn; try discriminate. destruct (forallb is_str l); [|discriminate]. intros [= <-]. reflexivity. Qed.

Lemma rest_out_lossless tag r names m known :
  NoDup (map fst m) -> ~ In k_type names -> rest_covered tag r names m = true ->
  exists rst, rest_out r names m = Some rst
              /\ Permutation (cm (tag_member tag ++ known ++ rst)) (cm (known ++ unknown_members names m)).
Proof.
  intros Nm Nt C. unfold rest_covered in C. unfold rest_out.
  set (U := unknown_members names m) in *.
  destruct r as [|skip|].
  - apply andb_true_iff in C as [Ct Cu]. destruct tag; [discriminate|]. destruct U; [|discriminate].
    eexists. split; reflexivity.
  - destruct tag as [t|].
    + apply andb_true_iff in C as [-> Ct].
      destruct (find_assoc k_type m) as [[| | | |t'| |]|] eqn:Ft; try discriminate.
      apply bytes_eqb_eq in Ct. subst t'. eexists. split; [reflexivity|].
      refine (cmap_reinsert k_type (JStr t) (JStr t) known U (NoDup_map_filter fst _ _ Nm) _ eq_refl).
      unfold U. rewrite find_unknown; assumption.
    + apply negb_true_iff in C. subst skip. eexists. split; reflexivity.
  - apply andb_true_iff in C as [Ct Cu]. destruct tag; [discriminate|].
    destruct U as [|kv [|]]; try discriminate. apply andb_true_iff in Cu as [Ck Ca].
    cbn [find]. rewrite Ck. destruct (str_array (snd kv)) as [v'|] eqn:Sa; [|discriminate].
    apply str_array_id in Sa. subst v'. eexists. split; [reflexivity|].
    cbn [tag_member app]. destruct kv. reflexivity.
Qed.

Theorem lossless s : lossless_at s.
Proof.
  induction s as [|s L|e IH|kk v IH|tag fields r IH] using schema_ind2; intros j W.
  - exists j. split; reflexivity.
  - rewrite (leaf_covered s j L) in W. destruct (project s j) as [r|] eqn:E; [|discriminate].
    destruct (leaf_project s j r L E) as [-> _]. exists j. split; reflexivity.
  - destruct j as [| | | | | l |]; cbn [well_covered] in W; try discriminate. rewrite forallb_forall in W.
    destruct (map_opt_Forall2 (project e) (fun x r => cs x = cs r) l) as (l' & Ml & F2).
    { apply Forall_forall. intros x Hx. destruct (IH x (W x Hx)) as (r & P & C). eauto. }
    cbn [project]. rewrite Ml. exists (JArr l'). split; [reflexivity|]. symmetry. apply canon_spec_arr_ext, F2.
  - destruct j as [| | | | | | m]; cbn [well_covered] in W; try discriminate.
    apply andb_true_iff in W as [Wk Wv]. rewrite forallb_forall in Wv.
    destruct (map_opt_snd_Forall2 (project v) (fun x r => cs x = cs r) m) as (m' & Mm & F2).
    { apply Forall_forall. intros x Hx. destruct (IH _ (Wv x Hx)) as (r & P & C). eauto. }
    cbn [project]. rewrite Wk, Mm. exists (JObj m'). split; [reflexivity|]. symmetry.
    apply canon_spec_obj_ext, F2.
  - destruct j as [| | | | | | m]; try discriminate. apply well_covered_obj in W as (Wm & Wn & Wt & Wf & Wr).
    destruct (known_out_lossless fields IH m Wm Wn Wf) as (known & K & Pk).
    destruct (rest_out_lossless tag r (map fst fields) m known Wm Wt Wr) as (rst & R & Pr).
    rewrite project_obj, K, R. eexists. split; [reflexivity|].
    symmetry. apply cs_obj_perm; [|rewrite cmap_keys; exact Wm].
    apply Permutation_sym. eapply perm_trans; eassumption.
Qed.

(* within the domain, acceptance is a function of the canonical form: any re-ordering of members, at
   any level, that leaves the document in the domain leaves acceptance unchanged *)
Theorem reformat_accepted_covered s b j1 j2 :
  well_covered s j1 = true -> well_covered s j2 = true -> canon j1 = canon j2 ->
  accepts s b j1 = accepts s b j2.
Proof.
  intros W1 W2 C. destruct (lossless s j1 W1) as (r1 & P1 & E1). destruct (lossless s j2 W2) as (r2 & P2 & E2).
  unfold accepts. rewrite P1, P2, !canon_is_cs, E1, E2, <- !canon_is_cs, C. reflexivity.
Qed.

(* Re-ordering (Model/Schema.v): what it leaves in place. The members of an object are found under the
   same names, each re-ordered in turn, before they are permuted; scalars do not change. *)
Definition reordered_in_place (m1 m2 : members) : Prop :=
  Forall2 (fun a b => fst a = fst b /\ reorder (snd a) (snd b)) m1 m2.

Lemma reorder_arr_inv l1 v2 : reorder (JArr l1) v2 -> exists l2, v2 = JArr l2 /\ Forall2 reorder l1 l2.
Proof.
  intro H. inversion H; subst.
  - exists l1. split; [reflexivity|]. apply Forall2_refl. apply ro_refl.
  - eexists. split; [reflexivity|assumption].
Qed.

Lemma reorder_obj_inv m1 v2 : reorder (JObj m1) v2 ->
  exists m2 m3, v2 = JObj m3 /\ reordered_in_place m1 m2 /\ Permutation m2 m3.
Proof.
  intro H. inversion H; subst.
  - exists m1, m1. split; [reflexivity|]. split; [|reflexivity].
    apply Forall2_refl. intro x. split; [reflexivity|apply ro_refl].
  - eexists _, _. split; [reflexivity|]. split; eassumption.
Qed.

Lemma reorder_scalar v1 v2 : reorder v1 v2 -> scalar v1 \/ scalar v2 -> v1 = v2.
Proof. destruct 1; [reflexivity|intros [[]|[]]..]. Qed.

Theorem reorder_cs v1 : forall v2, reorder v1 v2 -> cs v1 = cs v2.
Proof.
  induction v1 as [| bb | z | | s | l1 IH | m1 IH] using jv_ind2; intros v2 R;
    [(* a scalar stays as it is *) rewrite <- (reorder_scalar _ _ R (or_introl I)); reflexivity..| |].
  - apply reorder_arr_inv in R as (l2 & -> & F). apply canon_spec_arr_ext.
    refine (Forall2_impl_Forall _ _ _ _ _ _ IH F). intros x y Hx Rxy. exact (Hx y Rxy).
  - (* the names are distinct only where members were permuted *)
    inversion R as [|?|? m2 m3 F N Pm]; subst; [reflexivity|].
    transitivity (cs (JObj m2)).
    + apply canon_spec_obj_ext. refine (Forall2_impl_Forall _ _ _ _ _ _ IH F).
      intros a b Ha [E Rab]. split; [exact E|exact (Ha _ Rab)].
    + apply cs_obj_perm; [apply Permutation_map, Pm|].
      rewrite cmap_keys. change (NoDup (map fst m2)). rewrite (Forall2_keys reorder _ _ F). exact N.
Qed.

Lemma in_place_unknown names m1 m2 : reordered_in_place m1 m2 ->
  reordered_in_place (unknown_members names m1) (unknown_members names m2).
Proof.
  unfold unknown_members. induction 1 as [|a b m1 m2 [E Rx] F IH]; cbn [filter]; [constructor|].
  rewrite E. destruct (negb (mem_bytes (fst b) names)); [constructor; [split; assumption|exact IH]|exact IH].
Qed.

Lemma str_array_reorder v1 v2 x : str_array v1 = Some x -> reorder v1 v2 -> v2 = v1.
Proof.
  destruct v1 as [| | | | | l1 |]; cbn [str_array]; try discriminate.
  destruct (forallb is_str l1) eqn:A; [|discriminate]. intros _ H.
  apply reorder_arr_inv in H as (l2 & -> & F). f_equal.
  induction F as [|a b l1 l2 Rab F IH]; [reflexivity|]. cbn [forallb] in A. apply andb_true_iff in A as [Aa Al].
  rewrite (IH Al). destruct a; try discriminate. rewrite (reorder_scalar _ _ Rab); [reflexivity|left; exact I].
Qed.

Lemma reorder_to_empty v1 : reorder v1 (JObj []) -> v1 = JObj [].
Proof.
  intro H. inversion H as [|?|m1 m2 m3 F N Pm]; subst; [reflexivity|].
  apply Permutation_sym, Permutation_nil in Pm. subst m2. inversion F. reflexivity.
Qed.

Lemma kind_ok_reorder kind v1 v2 : reorder v1 v2 -> kind_ok kind v1 = true -> kind_ok kind v2 = true.
Proof.
  intros H K. destruct kind.
  - destruct v2; reflexivity.
  - destruct v2; try reflexivity. rewrite (reorder_scalar _ _ H) in K; [exact K|right; exact I].
  - destruct v2 as [| | | | | |[|x y]]; try reflexivity.
    apply reorder_to_empty in H. subst v1. discriminate.
Qed.

Lemma keys_ok_perm kk a b : Permutation a b -> keys_ok kk a = true -> keys_ok kk b = true.
Proof.
  intros P H. destruct kk; cbn [keys_ok] in *.
  - reflexivity.
  - eapply forallb_perm; eassumption.
  - eapply forallb_perm; eassumption.
  - destruct (map_opt hex_decode a) as [da|] eqn:E; [|discriminate].
    destruct (map_opt_perm _ _ _ _ P E) as (db & -> & Pd).
    apply nodup_bytes_iff. eapply Permutation_NoDup; [exact Pd|]. apply nodup_bytes_iff, H.
Qed.

(* Coverage is stable under each of the two steps of a re-ordering of an object: members re-ordered
   in place, then members permuted. *)
Definition wc_stable (s : schema) : Prop :=
  forall j1 j2, reorder j1 j2 -> well_covered s j1 = true -> well_covered s j2 = true.

Lemma fields_covered_in_place fields : Forall (fun f => wc_stable (snd (snd f))) fields ->
  forall m1 m2, reordered_in_place m1 m2 -> fields_covered fields m1 = true -> fields_covered fields m2 = true.
Proof.
  induction 1 as [|[n [kind s]] fields Hf Hfs IH]; intros m1 m2 F C; [reflexivity|].
  rewrite fields_covered_cons in *. cbn [fst snd] in *. apply andb_true_iff in C as [Cf Cfs].
  rewrite (IH _ _ F Cfs), andb_true_r. unfold field_covered in *. pose proof (find_assoc_Forall2 reorder n _ _ F) as Hn.
  destruct (find_assoc n m1) as [v1|], (find_assoc n m2) as [v2|]; try contradiction; [|exact Cf].
  apply andb_true_iff in Cf as [Wv Kv]. rewrite (Hf v1 v2 Hn Wv). exact (kind_ok_reorder _ _ _ Hn Kv).
Qed.

Lemma fields_covered_perm fields m2 m3 : NoDup (map fst m2) -> Permutation m2 m3 ->
  fields_covered fields m2 = fields_covered fields m3.
Proof.
  intros N Pm. induction fields as [|[n [kind s]] fields IH]; [reflexivity|].
  rewrite !fields_covered_cons, IH. cbn [fst snd]. unfold field_covered.
  rewrite (find_assoc_perm n m2 m3 N Pm). reflexivity.
Qed.

Lemma rest_covered_in_place tag r names m1 m2 : reordered_in_place m1 m2 ->
  rest_covered tag r names m1 = true -> rest_covered tag r names m2 = true.
Proof.
  intros F C. unfold rest_covered in *. pose proof (in_place_unknown names _ _ F) as FU.
  destruct r as [|skip|].
  - apply andb_true_iff in C as [-> Cu]. destruct (unknown_members names m1); [|discriminate].
    inversion FU. reflexivity.
  - destruct tag as [t|]; [|exact C]. apply andb_true_iff in C as [-> Ct].
    pose proof (find_assoc_Forall2 reorder k_type _ _ F) as Hn.
    destruct (find_assoc k_type m1) as [v1|]; [|discriminate].
    destruct (find_assoc k_type m2) as [v2|]; [|contradiction].
    destruct v1; try discriminate. rewrite <- (reorder_scalar _ _ Hn); [exact Ct|left; exact I].
  - apply andb_true_iff in C as [-> Cu]. destruct (unknown_members names m1) as [|kv1 [|]]; try discriminate.
    inversion FU as [|? kv2 ? U2' [Ek Rv] FU']; subst. inversion FU'; subst.
    apply andb_true_iff in Cu as [Ck Ca]. rewrite <- Ek, Ck.
    destruct (str_array (snd kv1)) as [x|] eqn:Sa; [|discriminate].
    rewrite (str_array_reorder _ _ _ Sa Rv), Sa. reflexivity.
Qed.

Lemma rest_covered_perm tag r names m2 m3 : NoDup (map fst m2) -> Permutation m2 m3 ->
  rest_covered tag r names m2 = true -> rest_covered tag r names m3 = true.
Proof.
  intros N Pm C. unfold rest_covered in *. rewrite <- (find_assoc_perm k_type m2 m3 N Pm).
  pose proof (perm_filter (fun kv => negb (mem_bytes (fst kv) names)) _ _ Pm) as PU.
  fold (unknown_members names m2) (unknown_members names m3) in PU.
  destruct r as [|skip|]; [| exact C |].
  - destruct (unknown_members names m2); [|rewrite andb_false_r in C; discriminate].
    apply Permutation_nil in PU. rewrite PU. exact C.
  - destruct (unknown_members names m2) as [|kv [|]]; try (rewrite andb_false_r in C; discriminate).
    apply Permutation_length_1_inv in PU. rewrite PU. exact C.
Qed.

Theorem reorder_covered s : wc_stable s.
Proof.
  induction s as [|s L|e IH|kk v IH|tag fields r IH] using schema_ind2; intros j1 j2 R W.
  - reflexivity.
  - rewrite (leaf_covered s _ L) in W. destruct (project s j1) as [r|] eqn:E; [|discriminate].
    destruct (leaf_project s j1 r L E) as [_ Sc]. rewrite <- (reorder_scalar _ _ R (or_introl Sc)).
    rewrite (leaf_covered s _ L), E. reflexivity.
  - destruct j1 as [| | | | | l1 |]; cbn [well_covered] in W; try discriminate.
    apply reorder_arr_inv in R as (l2 & -> & F). cbn [well_covered]. apply forallb_forall. intros y Hy.
    destruct (Forall2_In_r _ _ _ _ F Hy) as (x & Hx & Rxy). rewrite forallb_forall in W.
    exact (IH x y Rxy (W x Hx)).
  - destruct j1 as [| | | | | | m1]; cbn [well_covered] in W; try discriminate.
    apply reorder_obj_inv in R as (m2 & m3 & -> & F & Pm). cbn [well_covered].
    apply andb_true_iff in W as [Wk Wv]. apply andb_true_iff. split.
    + apply (keys_ok_perm kk (map fst m1)); [|exact Wk]. rewrite <- (Forall2_keys reorder _ _ F).
      apply Permutation_map, Pm.
    + apply forallb_forall. intros y Hy. apply (Permutation_in _ (Permutation_sym Pm)) in Hy.
      destruct (Forall2_In_r _ _ _ _ F Hy) as (x & Hx & Ek & Rxy). rewrite forallb_forall in Wv.
      exact (IH _ _ Rxy (Wv x Hx)).
  - destruct j1 as [| | | | | | m1]; try discriminate. apply well_covered_obj in W as (Wm & Wn & Wt & Wf & Wr).
    apply reorder_obj_inv in R as (m2 & m3 & -> & F & Pm).
    assert (N2 : NoDup (map fst m2)) by (rewrite (Forall2_keys reorder _ _ F); exact Wm).
    apply well_covered_obj. split; [|split; [exact Wn|split; [exact Wt|split]]].
    + eapply Permutation_NoDup; [apply Permutation_map, Pm|exact N2].
    + rewrite <- (fields_covered_perm fields m2 m3 N2 Pm). exact (fields_covered_in_place fields IH _ _ F Wf).
    + apply (rest_covered_perm tag r _ m2 m3 N2 Pm). exact (rest_covered_in_place tag r _ _ _ F Wr).
Qed.

(* finding F7: the two structs without catch-all *)
Definition n_delegations : bytes := bs "delegations".
Definition n_roles : bytes := bs "roles".
Definition n_star : bytes := bs "*".

Definition plain_targets_with (deleg_extra role_extra : members) : jv :=
  JObj [(bs "_type", JStr (bs "targets")); (bs "spec_version", JStr (bs "1.0.0")); (bs "version", JInt 1);
        (bs "expires", JStr (bs "2030-01-01T00:00:00Z")); (bs "targets", JObj []);
        (bs "delegations",
         JObj ([(bs "keys", JObj []);
                (bs "roles", JArr [JObj ([(bs "name", JStr (bs "r")); (bs "keyids", JArr []);
                                          (bs "threshold", JInt 1); (bs "paths", JArr [JStr (bs "*")]);
                                          (bs "terminating", JBool false)] ++ role_extra)])]
               ++ deleg_extra))].

Definition unknown_member : bytes * jv := (bs "x-unknown", JInt 1).
Definition f7_plain : jv := plain_targets_with [] [].
Definition f7_in_delegations : jv := plain_targets_with [unknown_member] [].
Definition f7_in_delegated_role : jv := plain_targets_with [] [unknown_member].

(* signed exactly as written: accepted? *)
Definition accepted_as_written (s : schema) (j : jv) : bool :=
  match canon j with Some b => accepts s b j | None => false end.

Lemma catch_all_levels :
  lossy_levels root_schema = [] /\ lossy_levels timestamp_schema = [] /\ lossy_levels snapshot_schema = []
  /\ lossy_levels targets_schema = [[n_delegations]; [n_delegations; n_roles; n_star]].
Proof. vm_compute. repeat split; reflexivity. Qed.

(* the same unknown member at the levels that do have a catch-all is carried along *)
Definition extra_at_top (j : jv) : jv :=
  match j with JObj m => JObj (m ++ [unknown_member]) | _ => j end.
Lemma top_level_extra_kept :
  accepted_as_written targets_schema (extra_at_top f7_plain) = true
  /\ well_covered targets_schema (extra_at_top f7_plain) = true.
Proof. vm_compute. split; reflexivity. Qed.
