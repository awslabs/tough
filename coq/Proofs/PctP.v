(* Percent-encoding of role names into metadata file names (Model/Pct.v, C16): decoding undoes encoding, so the
   encoding is injective; the file names of different roles or versions differ, and each is a plain directory entry. *)
From ToughV Require Import Model.Base Model.Pct Proofs.BaseP.

Lemma byte_nibbles x : x < 256 -> x / 16 < 16 /\ x mod 16 < 16 /\ x / 16 * 16 + x mod 16 = x.
Proof. lia. Qed.

(* the character classes in Prop form, for lia *)
Lemma unreserved_cases c : unreserved c = true <->
  48 <= c <= 57 \/ 65 <= c <= 90 \/ 97 <= c <= 122 \/ c = 95 \/ c = 46 \/ c = 45 \/ c = 126.
Proof. unfold unreserved, is_alnum. lia. Qed.

Lemma fname_char_cases c : fname_char c = true <-> unreserved c = true \/ c = 37.
Proof. unfold fname_char. rewrite orb_true_iff, N.eqb_eq. reflexivity. Qed.

Lemma unreserved_not_pct c : unreserved c = true -> (c =? 37) = false.
Proof. intro H. apply unreserved_cases in H. lia. Qed.

Lemma hexdigit_up_unreserved d : d < 16 -> unreserved (hexdigit_up d) = true.
Proof. intro H. apply unreserved_cases. unfold hexdigit_up. destruct (d <? 10) eqn:E; lia. Qed.

Lemma unhex_up_hexdigit d : d < 16 -> unhex_up (hexdigit_up d) = d.
Proof.
  unfold unhex_up, hexdigit_up. intros. destruct (d <? 10) eqn:E.
  - destruct (48 + d <=? 57) eqn:E2; lia.
  - destruct (55 + d <=? 57) eqn:E2; lia.
Qed.

Lemma pct_decode_encode s : Forall (fun c => c < 256) s -> pct_decode (pct_encode s) = s.
Proof.
  induction 1 as [|c s Hc Hs IH]; [reflexivity|].
  cbn [pct_encode]. unfold pct_byte. destruct (unreserved c) eqn:U.
  - cbn [app pct_decode]. rewrite (unreserved_not_pct _ U). f_equal. exact IH.
  - cbn [app pct_decode]. change (37 =? 37) with true. cbv iota.
    destruct (byte_nibbles c Hc) as (Hh & Hl & E).
    rewrite !unhex_up_hexdigit, IH, E by assumption. reflexivity.
Qed.

Lemma pct_encode_app a b : pct_encode (a ++ b) = pct_encode a ++ pct_encode b.
Proof. induction a as [|c a IH]; [reflexivity|]. cbn [app pct_encode]. rewrite IH. apply app_assoc. Qed.

Lemma pct_encode_unreserved s : Forall (fun c => unreserved c = true) s -> pct_encode s = s.
Proof.
  induction 1 as [|c s Hc Hs IH]; [reflexivity|]. cbn [pct_encode]. unfold pct_byte. rewrite Hc, IH. reflexivity.
Qed.

Lemma unreserved_bytes s : Forall (fun c => unreserved c = true) s -> Forall (fun c => c < 256) s.
Proof. apply Forall_impl. intros c H. apply unreserved_cases in H. lia. Qed.

Theorem pct_encode_injective s1 s2 :
  Forall (fun c => c < 256) s1 -> Forall (fun c => c < 256) s2 ->
  pct_encode s1 = pct_encode s2 -> s1 = s2.
Proof.
  intros H1 H2 E. rewrite <- (pct_decode_encode _ H1), <- (pct_decode_encode _ H2), E. reflexivity.
Qed.

Lemma pct_encode_chars s : Forall (fun c => c < 256) s ->
  Forall (fun c => fname_char c = true) (pct_encode s).
Proof.
  induction 1 as [|c s Hc Hs IH]; [constructor|].
  cbn [pct_encode]. apply Forall_app. split; [|exact IH].
  unfold pct_byte. destruct (unreserved c) eqn:U.
  - constructor; [apply fname_char_cases; left; exact U|constructor].
  - destruct (byte_nibbles c Hc) as (Hh & Hl & _).
    repeat constructor; apply fname_char_cases; left; apply hexdigit_up_unreserved; assumption.
Qed.

Lemma digit_fname_char c : is_digit c = true -> fname_char c = true.
Proof. intro H. apply fname_char_cases. left. apply unreserved_cases. unfold is_digit in H. lia. Qed.

Lemma role_filename_chars cs v name : Forall (fun c => c < 256) name ->
  Forall (fun c => fname_char c = true) (role_filename cs v name).
Proof.
  intro H. unfold role_filename. repeat (apply Forall_app; split).
  - destruct cs; [|constructor]. apply Forall_app. split.
    + eapply Forall_impl; [|apply dec_digits]. apply digit_fname_char.
    + repeat constructor.
  - apply pct_encode_chars, H.
  - repeat constructor.
Qed.

(* no '/', no NUL, no backslash: a plain directory entry *)
Lemma fname_char_plain c : fname_char c = true -> c <> 47 /\ c <> 0 /\ c <> 92.
Proof. intro H. apply fname_char_cases in H. rewrite unreserved_cases in H. lia. Qed.

Lemma role_filename_last cs v name : last (role_filename cs v name) 0 = 110.
Proof.
  unfold role_filename, dot_json. change [46; 106; 115; 111; 110] with ([46; 106; 115; 111] ++ [110]).
  rewrite !app_assoc. apply last_last.
Qed.

Lemma role_filename_length cs v name : (5 <= length (role_filename cs v name))%nat.
Proof. unfold role_filename. rewrite !app_length. cbn [dot_json length]. lia. Qed.

Theorem role_filename_injective cs v1 v2 n1 n2 :
  Forall (fun c => c < 256) n1 -> Forall (fun c => c < 256) n2 ->
  role_filename cs v1 n1 = role_filename cs v2 n2 -> n1 = n2 /\ (cs = true -> v1 = v2).
Proof.
  intros H1 H2 E. unfold role_filename in E. destruct cs.
  - rewrite <- !app_assoc in E. cbn [app] in E.
    apply digits_prefix in E as [Ev E]; try apply dec_digits; try reflexivity.
    injection E as E. apply app_inv_tail in E. split; [apply pct_encode_injective; assumption|].
    intros _. apply dec_inj, Ev.
  - cbn [app] in E. apply app_inv_tail in E. split; [apply pct_encode_injective; assumption|].
    discriminate.
Qed.

Lemma role_filename_plain cs v name : Forall (fun c => c < 256) name ->
  Forall (fun c => c <> 47 /\ c <> 0 /\ c <> 92) (role_filename cs v name)
  /\ role_filename cs v name <> [] /\ role_filename cs v name <> [46]
  /\ role_filename cs v name <> [46; 46].
Proof.
  intro H. split.
  - eapply Forall_impl; [|apply role_filename_chars, H]. apply fname_char_plain.
  - pose proof (role_filename_length cs v name) as L.
    repeat split; intro E; rewrite E in L; cbn [length] in L; lia.
Qed.

Lemma role_filename_distinct cs v1 v2 n1 n2 :
  Forall (fun c => c < 256) n1 -> Forall (fun c => c < 256) n2 ->
  n1 <> n2 -> role_filename cs v1 n1 <> role_filename cs v2 n2.
Proof. intros H1 H2 N E. apply N. eapply role_filename_injective; eassumption. Qed.
