(* "... and only of it" for an arbitrary normalisation function: the canonical form under [nfc] is the
   canonical form under the identity of the value with [nfc] applied to every string and member name,
   so the injectivity of the ASCII formatter (Proofs/CJsonInjP.v, canonical_form_determines_value)
   carries over: two values have the same canonical form iff they agree after normalising strings
   and names and sorting members. *)
From ToughV Require Import Model.Base Model.Json Model.CJson Model.Schema
     Proofs.BaseP Proofs.CJsonP Proofs.CJsonInjP.

Fixpoint jmap (f : bytes -> bytes) (v : jv) : jv :=
  match v with
  | JStr s => JStr (f s)
  | JArr l => JArr (map (jmap f) l)
  | JObj m => JObj (map (fun kv => (f (fst kv), jmap f (snd kv))) m)
  | _ => v
  end.

Section Nfc.
  Variable nfc : bytes -> bytes.

  Lemma canon_spec_jmap v : canon_spec nfc v = cs (jmap nfc v).
  Proof.
    induction v as [| bb | z | | s | l IHl | m IHm] using jv_ind2; try reflexivity; cbn [jmap].
    - apply canon_spec_arr_ext, Forall2_map_r. exact IHl.
    - apply canon_spec_obj_ext, Forall2_map_r. eapply Forall_impl; [|exact IHm].
      intros kv H. split; [reflexivity|exact H].
  Qed.

  Definition observable (v : jv) : jv := jnorm (jmap nfc v).

  Theorem canon_only_of_it v1 v2 b :
    canon_spec nfc v1 = Some b ->
    (canon_spec nfc v2 = Some b <-> (observable v2 = observable v1 /\ canon_spec nfc v2 <> None)).
  Proof.
    rewrite !canon_spec_jmap. unfold observable. apply canonical_form_determines_value.
  Qed.

  Corollary canon_depends_on_observable v1 v2 :
    observable v1 = observable v2 -> canon_spec nfc v1 <> None -> canon_spec nfc v2 <> None ->
    canon_spec nfc v1 = canon_spec nfc v2.
  Proof.
    intros E N1 N2. destruct (canon_spec nfc v1) as [b|] eqn:C1; [|contradiction].
    symmetry. apply (proj2 (canon_only_of_it v1 v2 b C1)). split; [symmetry; exact E|exact N2].
  Qed.
End Nfc.
