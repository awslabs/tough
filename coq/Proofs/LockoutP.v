(* Where the contents of the datastore come from, over arbitrary histories of cycles (interrupted or
   not), and the resulting "never locked out" theorem: after any history, a cycle against a valid
   repository that is at least as new as every document earlier cycles were served succeeds. *)
From ToughV Require Import Model.Base Model.Deleg Model.Client.
From ToughV Require Import Proofs.ClientP Proofs.RollbackP Proofs.SitesP Proofs.DelegLoadP
     Proofs.LivenessP.

(* what a cycle was served. The timestamp is always asked for under the same name, with the configured limit
   and no digest; name, limit and digest of the snapshot and of targets depend on the root trusted and on the
   parent's entry, of which the cycle alone says nothing, so they are left open *)
Definition served_ts (c : cyc) (x : timestamp) : Prop :=
  exists file, fetch (cy_srv c) name_timestamp (c_max_timestamp_size (cy_cfg c)) None = FOk file /\ f_body file = CTs x.
Definition served_snap (c : cyc) (x : snapshot) : Prop :=
  exists name limit hash file, fetch (cy_srv c) name limit hash = FOk file /\ f_body file = CSnap x.
Definition served_tgt (c : cyc) (x : targets) : Prop :=
  exists name limit hash file, fetch (cy_srv c) name limit hash = FOk file /\ f_body file = CTargets x.

Definition field_from {A} (P : A -> Prop) (o o' : option (stored A)) : Prop :=
  o' = o \/ o' = None \/ exists y, o' = Some (SDoc y) /\ P y.

Lemma field_from_trans {A} (P : A -> Prop) o1 o2 o3 : field_from P o1 o2 -> field_from P o2 o3 -> field_from P o1 o3.
Proof. intros H1 [->|[E|E]]; [exact H1|right; left; exact E|right; right; exact E]. Qed.

Definition kept_or_served (c : cyc) (s s' : store) : Prop :=
  field_from (served_ts c) (st_ts s) (st_ts s') /\ field_from (served_snap c) (st_snap s) (st_snap s')
  /\ field_from (served_tgt c) (st_tgt s) (st_tgt s') /\ field_from (eq (cy_now c)) (st_time s) (st_time s').

Lemma kept_or_served_refl c s : kept_or_served c s s.
Proof. repeat split; left; reflexivity. Qed.

Lemma cycle_kept_or_served c s res w' : run_cycle fixed c s = (res, w') -> kept_or_served c s (w_store w').
Proof.
  apply (cycle_writes (kept_or_served c) fixed c s fixed_atomic).
  - (* reflexive *) apply kept_or_served_refl.
  - (* transitive *) intros s1 s2 s3 (T1 & S1 & G1 & M1) (T2 & S2 & G2 & M2). repeat split; eapply field_from_trans; eassumption.
  - (* clock *) intro a. split; [|split; [|split]]; [left; reflexivity..|right; right; exists (cy_now c); auto].
  - (* name of a delegated-role file *) intros n a. repeat split; left; reflexivity.
  - (* removal on rotation *) intros r0 r a b _ _ _ Rm. apply removed_fields in Rm as (_ & Time & Tgt & Ts & Snap).
    split; [destruct Ts; [left|right; left]; assumption|]. split; [destruct Snap; [left|right; left]; assumption|].
    split; left; assumption.
  - (* root *) intros r a _. repeat split; left; reflexivity.
  - (* timestamp *) intros r a d _ (Hs & _). split; [right; right; exists d; auto|repeat split; left; reflexivity].
  - (* snapshot *) intros r ts a d _ ((m & file & _ & Hf & Hb & _) & _). split; [left; reflexivity|]. split; [right; right|split; left; reflexivity].
    exists d. split; [reflexivity|]. do 4 eexists. split; [exact Hf|exact Hb].
  - (* targets *) intros r sn a d _ ((m & file & _ & Hf & Hb & _) & _). split; [left; reflexivity|]. split; [left; reflexivity|].
    split; [right; right|left; reflexivity]. exists d. split; [reflexivity|]. do 4 eexists. split; [exact Hf|exact Hb].
Qed.

Definition end_store (fx : fixes) (h : list cyc) (s : store) : store :=
  fold_left (fun s c => w_store (snd (run_cycle fx c s))) h s.

Lemma end_store_snoc fx h c s : end_store fx (h ++ [c]) s = w_store (snd (run_cycle fx c (end_store fx h s))).
Proof. unfold end_store. rewrite fold_left_app. reflexivity. Qed.

Definition known_ts (s0 : store) (h : list cyc) (x : timestamp) : Prop :=
  st_ts s0 = Some (SDoc x) \/ exists c, In c h /\ served_ts c x.
Definition known_snap (s0 : store) (h : list cyc) (x : snapshot) : Prop :=
  st_snap s0 = Some (SDoc x) \/ exists c, In c h /\ served_snap c x.
Definition known_tgt (s0 : store) (h : list cyc) (x : targets) : Prop :=
  st_tgt s0 = Some (SDoc x) \/ exists c, In c h /\ served_tgt c x.
Definition known_time (s0 : store) (h : list cyc) (t : Z) : Prop :=
  st_time s0 = Some (SDoc t) \/ exists c, In c h /\ cy_now c = t.

Lemma known_snoc {A} (P : cyc -> A -> Prop) (o0 o o' : option (stored A)) h c :
  (forall x, o = Some (SDoc x) -> o0 = Some (SDoc x) \/ exists c', In c' h /\ P c' x) ->
  field_from (P c) o o' ->
  forall x, o' = Some (SDoc x) -> o0 = Some (SDoc x) \/ exists c', In c' (h ++ [c]) /\ P c' x.
Proof.
  intros IH [->|[->|(y & -> & Hy)]] x Ex; [|discriminate|].
  - destruct (IH x Ex) as [K|(c' & Hin & K)]; [left; exact K|right; exists c'; split; [|exact K]].
    apply in_or_app. left. exact Hin.
  - injection Ex as <-. right. exists c. split; [apply in_or_app; right; left; reflexivity|exact Hy].
Qed.

Theorem store_provenance : forall h s0,
  (forall x, st_ts (end_store fixed h s0) = Some (SDoc x) -> known_ts s0 h x)
  /\ (forall x, st_snap (end_store fixed h s0) = Some (SDoc x) -> known_snap s0 h x)
  /\ (forall x, st_tgt (end_store fixed h s0) = Some (SDoc x) -> known_tgt s0 h x)
  /\ (forall t, st_time (end_store fixed h s0) = Some (SDoc t) -> known_time s0 h t).
Proof.
  intros h s0. induction h as [|c h IH] using rev_ind.
  { cbn. repeat split; intros x E; left; exact E. }
  rewrite end_store_snoc. set (s := end_store fixed h s0) in *.
  destruct (run_cycle fixed c s) as [res w'] eqn:E. cbn [snd].
  pose proof (cycle_kept_or_served _ _ _ _ E) as (T & S & G & M). destruct IH as (IT & IS & IG & IM).
  split; [exact (known_snoc served_ts _ _ _ h c IT T)|]. split; [exact (known_snoc served_snap _ _ _ h c IS S)|].
  split; [exact (known_snoc served_tgt _ _ _ h c IG G)|exact (known_snoc (fun c t => cy_now c = t) _ _ _ h c IM M)].
Qed.

Theorem never_locked_out h s0 c r ts sn t0 t :
  cy_fault c = None ->
  (forall tm, known_time s0 h tm -> (tm <= cy_now c)%Z) ->
  final_root fixed c = Some r ->
  (c_enforce (cy_cfg c) = true -> (cy_now c <= r_expires r)%Z) ->
  ts_accepted (cy_cfg c) r (cy_srv c) (cy_now c) store0 ts ->
  snap_accepted (cy_cfg c) r ts (cy_srv c) (cy_now c) store0 sn ->
  tgt_accepted (cy_cfg c) r sn (cy_srv c) (cy_now c) store0 t0 ->
  tgt_tree (cy_cfg c) (cy_srv c) sn (r_cs r) t0 t -> validate t = true ->
  (forall x, known_ts s0 h x -> root_verify r 3 (ts_sigs x) = true -> ts_version x <= ts_version ts) ->
  (forall x, known_snap s0 h x -> root_verify r 1 (sn_sigs x) = true -> snap_rollback_ok x sn) ->
  (forall x, known_tgt s0 h x -> root_verify r 2 (tg_sigs x) = true -> tg_version x <= tg_version t0) ->
  exists w', run_cycle fixed c (end_store fixed h s0)
             = (Ok {| rp_root := r; rp_ts := ts; rp_snap := sn; rp_targets := t |}, w').
Proof.
  intros Hflt Hclk Hfr Hre (A1 & A2 & _ & A4) (B1 & B2 & _ & B4) (C1 & C2 & _ & C4) HT Hval NT NS NG.
  destruct (store_provenance h s0) as (PT & PS & PG & PTm).
  apply cycle_live with (t0 := t0); auto.
  - unfold clock_fwd, time_back. destruct (st_time (end_store fixed h s0)) as [[|tm]|] eqn:Et; try reflexivity.
    apply Z.ltb_ge. apply Hclk. apply PTm. reflexivity.
  - split; [exact A1|]. split; [exact A2|]. split; [|exact A4]. intros old Eo. apply NT, PT, Eo.
  - split; [exact B1|]. split; [exact B2|]. split; [|exact B4]. intros old Eo. apply NS, PS, Eo.
  - split; [exact C1|]. split; [exact C2|]. split; [|exact C4]. intros old Eo. apply NG, PG, Eo.
Qed.

Lemma w_srv_serves v tsk name limit hash file : fetch (w_srv false v tsk) name limit hash = FOk file ->
  f_body file = CTs (w_ts v 5 tsk) \/ f_body file = CSnap (w_snap 5) \/ f_body file = CTargets w_targets.
Proof.
  intro H. apply fetch_ok in H as (L & _). apply lookup_In in L.
  destruct L as [[= _ <-]|[[= _ <-]|[[= _ <-]|[]]]]; auto.
Qed.

(* non-vacuity: after a successful cycle (timestamp 5) and a cycle killed in the middle of the write of
   timestamp 6, the repository with timestamp 6 meets every premise of the theorem *)
Example never_locked_out_example :
  let h := [w_cyc false 5 3 None; w_cyc false 6 3 (Some (1%nat, 2))] in
  let c := w_cyc false 6 3 None in
  exists w', run_cycle fixed c (end_store fixed h store0)
             = (Ok {| rp_root := w_root 1 3; rp_ts := w_ts 6 5 3; rp_snap := w_snap 5; rp_targets := w_targets |}, w').
Proof.
  intros h c. apply never_locked_out with (t0 := w_targets).
  - reflexivity.
  - (* the clocks of the history *)
    intros tm [E|(c' & Hin & E)]; [discriminate|]. destruct Hin as [<-|[<-|[]]]; cbn in E; subst tm; cbn; lia.
  - vm_compute. reflexivity.
  - intro E. discriminate.
  - (* timestamp, snapshot and targets are acceptable to an empty datastore; nothing is delegated *)
    split; [eexists; split; [vm_compute; reflexivity|reflexivity]|]. split; [vm_compute; reflexivity|].
    split; [intros old E; discriminate|intro E; discriminate].
  - split; [do 2 eexists; split; [vm_compute; reflexivity|]; split; [vm_compute; reflexivity|]; split; reflexivity|].
    split; [vm_compute; reflexivity|]. split; [intros old E; discriminate|intro E; discriminate].
  - split; [do 2 eexists; split; [vm_compute; reflexivity|]; split; [vm_compute; reflexivity|]; split; reflexivity|].
    split; [vm_compute; reflexivity|]. split; [intros old E; discriminate|intro E; discriminate].
  - left. split; reflexivity.
  - vm_compute. reflexivity.
  - (* what the two earlier cycles were served: timestamps 5 and 6, the same snapshot, the same targets *)
    intros x [E|(c' & Hin & file & Hf & Hb)] _; [discriminate|].
    destruct Hin as [<-|[<-|[]]]; apply w_srv_serves in Hf as [K|[K|K]]; rewrite K in Hb; try discriminate;
      injection Hb as <-; cbn; lia.
  - intros x [E|(c' & Hin & name & limit & hash & file & Hf & Hb)] _; [discriminate|].
    assert (x = w_snap 5) as ->.
    { destruct Hin as [<-|[<-|[]]]; apply w_srv_serves in Hf as [K|[K|K]]; rewrite K in Hb; congruence. }
    split; [cbn; lia|]. intros om E. exists om. split; [exact E|lia].
  - intros x [E|(c' & Hin & name & limit & hash & file & Hf & Hb)] _; [discriminate|].
    assert (x = w_targets) as ->.
    { destruct Hin as [<-|[<-|[]]]; apply w_srv_serves in Hf as [K|[K|K]]; rewrite K in Hb; congruence. }
    cbn. lia.
Qed.

(* recovery after the online keys were replaced: documents signed only by the old keys impose nothing *)
Corollary recovery_after_rotation h s0 c r ts sn t0 t :
  cy_fault c = None ->
  (forall tm, known_time s0 h tm -> (tm <= cy_now c)%Z) ->
  final_root fixed c = Some r ->
  (c_enforce (cy_cfg c) = true -> (cy_now c <= r_expires r)%Z) ->
  ts_accepted (cy_cfg c) r (cy_srv c) (cy_now c) store0 ts ->
  snap_accepted (cy_cfg c) r ts (cy_srv c) (cy_now c) store0 sn ->
  tgt_accepted (cy_cfg c) r sn (cy_srv c) (cy_now c) store0 t0 ->
  tgt_tree (cy_cfg c) (cy_srv c) sn (r_cs r) t0 t -> validate t = true ->
  (forall x, known_ts s0 h x -> root_verify r 3 (ts_sigs x) = false) ->
  (forall x, known_snap s0 h x -> root_verify r 1 (sn_sigs x) = false) ->
  (forall x, known_tgt s0 h x -> root_verify r 2 (tg_sigs x) = true -> tg_version x <= tg_version t0) ->
  exists w', run_cycle fixed c (end_store fixed h s0)
             = (Ok {| rp_root := r; rp_ts := ts; rp_snap := sn; rp_targets := t |}, w').
Proof.
  intros Hflt Hclk Hfr Hre A B C HT Hval NT NS NG.
  apply never_locked_out with (t0 := t0); auto.
  - intros x K V. rewrite (NT x K) in V. discriminate.
  - intros x K V. rewrite (NS x K) in V. discriminate.
Qed.
