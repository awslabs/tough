(* What Model/Base.v computes, as every other file uses it: decimal numerals, equality and order of
   byte strings, association lists keyed by byte strings; then the facts about lists that the
   standard library lacks. *)
From ToughV Require Import Model.Base.
From Coq Require Import ZifyBool ZifyNat Permutation.

Lemma undec_acc_app acc l c : undec_acc acc (l ++ [c]) = undec_acc acc l * 10 + (c - 48).
Proof. revert acc; induction l as [|x l IH]; intro acc; cbn [undec_acc app]; [reflexivity|apply IH]. Qed.

Lemma is_digit_digit d : d < 10 -> is_digit (digit d) = true.
Proof. unfold is_digit, digit; intros; lia. Qed.

Lemma dec_rev_S f n : dec_rev (S f) n =
  if n <? 10 then [digit n] else digit (n mod 10) :: dec_rev f (n / 10).
Proof. reflexivity. Qed.

Lemma dec_rev_spec f : forall n, n < 2 ^ N.of_nat f ->
  undec (rev (dec_rev (S f) n)) = n /\ Forall (fun c => is_digit c = true) (dec_rev (S f) n)
  /\ dec_rev (S f) n <> [].
Proof.
  induction f as [|f IH]; intros n Hn.
  - assert (n = 0) by (cbn in Hn; lia). subst. cbn. repeat split; try discriminate.
    constructor; [reflexivity|constructor].
  - rewrite dec_rev_S. destruct (n <? 10) eqn:E.
    + repeat split; try discriminate.
      * unfold undec. cbn [rev app undec_acc]. unfold digit. lia.
      * constructor; [apply is_digit_digit; lia|constructor].
    + assert (Hd : n / 10 < 2 ^ N.of_nat f).
      { rewrite Nat2N.inj_succ, N.pow_succ_r' in Hn. lia. }
      destruct (IH _ Hd) as (H1 & H2 & H3).
      repeat split; try discriminate.
      * cbn [rev]. unfold undec in *. rewrite undec_acc_app, H1. unfold digit. lia.
      * constructor; [apply is_digit_digit; lia|exact H2].
Qed.

Lemma dec_fuel_ok n : n < 2 ^ N.of_nat (N.to_nat (N.size n)).
Proof. rewrite N2Nat.id. apply N.size_gt. Qed.

Lemma undec_dec n : undec (dec n) = n.
Proof. unfold dec, dec_fuel. apply (dec_rev_spec _ _ (dec_fuel_ok n)). Qed.

Lemma dec_inj a b : dec a = dec b -> a = b.
Proof. intro H. rewrite <- (undec_dec a), <- (undec_dec b), H. reflexivity. Qed.

Lemma dec_digits n : Forall (fun c => is_digit c = true) (dec n).
Proof.
  unfold dec, dec_fuel. apply Forall_rev. apply (dec_rev_spec _ _ (dec_fuel_ok n)).
Qed.

Lemma dec_nonempty n : dec n <> [].
Proof.
  unfold dec, dec_fuel. intro H. apply (f_equal (@rev _)) in H. rewrite rev_involutive in H.
  cbn [rev] in H. revert H. apply (dec_rev_spec _ _ (dec_fuel_ok n)).
Qed.

(* a numeral ends where the first byte that is not a digit stands *)
Definition nodigit_head (r : bytes) : Prop :=
  match r with [] => True | c :: _ => is_digit c = false end.

Lemma digits_prefix a : forall b r1 r2,
  Forall (fun c => is_digit c = true) a -> Forall (fun c => is_digit c = true) b ->
  a ++ r1 = b ++ r2 -> nodigit_head r1 -> nodigit_head r2 -> a = b /\ r1 = r2.
Proof.
  induction a as [|x a IH]; intros [|y b] r1 r2 Ha Hb E N1 N2; cbn [app] in E.
  - split; [reflexivity|exact E].
  - subst r1. cbn in N1. apply Forall_inv in Hb. congruence.
  - subst r2. cbn in N2. apply Forall_inv in Ha. congruence.
  - injection E as -> E. apply Forall_inv_tail in Ha, Hb.
    destruct (IH b r1 r2 Ha Hb E N1 N2) as [-> ->]. split; reflexivity.
Qed.

Lemma bytes_eqb_eq a : forall b, bytes_eqb a b = true <-> a = b.
Proof.
  induction a as [|x a IH]; intros [|y b]; cbn [bytes_eqb]; split; intro H; try discriminate; auto.
  - apply andb_true_iff in H as [H1 H2]. apply N.eqb_eq in H1. apply IH in H2. congruence.
  - inversion H; subst. rewrite N.eqb_refl. cbn. apply IH. reflexivity.
Qed.

Lemma bytes_eqb_refl a : bytes_eqb a a = true.
Proof. apply bytes_eqb_eq. reflexivity. Qed.

Lemma bytes_eqb_neq a b : bytes_eqb a b = false <-> a <> b.
Proof.
  split; intro H.
  - intro E. apply bytes_eqb_eq in E. congruence.
  - destruct (bytes_eqb a b) eqn:E; [apply bytes_eqb_eq in E; contradiction|reflexivity].
Qed.

Lemma bytes_eqb_spec a b : reflect (a = b) (bytes_eqb a b).
Proof.
  destruct (bytes_eqb a b) eqn:E; constructor; [apply bytes_eqb_eq, E|apply bytes_eqb_neq, E].
Qed.

Lemma bytes_eqb_sym a b : bytes_eqb a b = bytes_eqb b a.
Proof.
  destruct (bytes_eqb_spec a b) as [->|N]; symmetry; [apply bytes_eqb_refl|].
  apply bytes_eqb_neq. intro E. apply N. symmetry. exact E.
Qed.

Section Assoc.
  Context {V : Type}.
  Implicit Types m a b : list (bytes * V).

  Lemma find_assoc_app k a b :
    find_assoc k (a ++ b) = match find_assoc k a with Some v => Some v | None => find_assoc k b end.
  Proof.
    induction a as [|[k0 v0] a IH]; cbn [app find_assoc]; [reflexivity|].
    destruct (bytes_eqb k k0); [reflexivity|exact IH].
  Qed.

  Lemma find_assoc_notin k m : ~ In k (map fst m) -> find_assoc k m = None.
  Proof.
    induction m as [|[k0 v0] m IH]; intro N; cbn [find_assoc]; [reflexivity|].
    destruct (bytes_eqb_spec k k0) as [->|_].
    - exfalso. apply N. left. reflexivity.
    - apply IH. intro H. apply N. right. exact H.
  Qed.

  Lemma find_assoc_In k m v : find_assoc k m = Some v -> In (k, v) m.
  Proof.
    induction m as [|[k0 v0] m IH]; cbn [find_assoc]; [discriminate|].
    destruct (bytes_eqb_spec k k0) as [->|_].
    - intros [= ->]. left. reflexivity.
    - intro H. right. apply IH, H.
  Qed.

  Lemma In_find_assoc k m v : NoDup (map fst m) -> In (k, v) m -> find_assoc k m = Some v.
  Proof.
    induction m as [|[k0 v0] m IH]; cbn [map fst find_assoc]; intros N Hin; [contradiction|].
    apply NoDup_cons_iff in N as [N0 Nm]. destruct Hin as [[= -> ->]|Hin].
    - rewrite bytes_eqb_refl. reflexivity.
    - destruct (bytes_eqb_spec k k0) as [->|_]; [|apply IH; assumption].
      exfalso. apply N0. exact (in_map fst _ _ Hin).
  Qed.

  Lemma find_assoc_perm k a b : NoDup (map fst a) -> Permutation a b -> find_assoc k a = find_assoc k b.
  Proof.
    intros N P.
    assert (Nb : NoDup (map fst b)) by (eapply Permutation_NoDup; [apply Permutation_map, P|exact N]).
    destruct (find_assoc k a) as [v|] eqn:Fa.
    - symmetry. apply In_find_assoc; [exact Nb|]. eapply Permutation_in; [exact P|]. apply find_assoc_In, Fa.
    - destruct (find_assoc k b) as [v|] eqn:Fb; [|reflexivity].
      apply find_assoc_In, (Permutation_in _ (Permutation_sym P)), (In_find_assoc _ _ _ N) in Fb. congruence.
  Qed.
End Assoc.

Lemma mem_bytes_In k l : mem_bytes k l = true <-> In k l.
Proof.
  induction l as [|x l IH]; cbn [mem_bytes In]; [split; [discriminate|tauto]|].
  rewrite orb_true_iff, IH, bytes_eqb_eq. split; intros [H|H]; auto.
Qed.

Lemma lex_ltb_irrefl a : lex_ltb a a = false.
Proof. induction a as [|x a IH]; cbn [lex_ltb]; [reflexivity|]. rewrite N.ltb_irrefl, N.eqb_refl. exact IH. Qed.

Lemma lex_ltb_trans a : forall b c, lex_ltb a b = true -> lex_ltb b c = true -> lex_ltb a c = true.
Proof.
  induction a as [|x a IH]; intros [|y b] [|z c]; cbn [lex_ltb]; intros H1 H2; try discriminate; auto.
  destruct (x <? y) eqn:Exy.
  - destruct (y <? z) eqn:Eyz.
    + assert (x <? z = true) as -> by lia. reflexivity.
    + destruct (y =? z) eqn:Eyz'; [|discriminate]. assert (x <? z = true) as -> by lia. reflexivity.
  - destruct (x =? y) eqn:Exy'; [|discriminate]. apply N.eqb_eq in Exy'. subst y.
    destruct (x <? z) eqn:Exz; [reflexivity|].
    destruct (x =? z) eqn:Exz'; [|discriminate]. eapply IH; eassumption.
Qed.

Lemma lex_ltb_total a : forall b, lex_ltb a b = false -> lex_ltb b a = false -> a = b.
Proof.
  induction a as [|x a IH]; intros [|y b]; cbn [lex_ltb]; intros H1 H2; try discriminate; auto.
  destruct (x <? y) eqn:E1; [discriminate|]. destruct (y <? x) eqn:E2; [discriminate|].
  assert (x = y) by lia. subst y. rewrite N.eqb_refl in *. f_equal. apply IH; assumption.
Qed.

Lemma lex_ltb_asym a b : lex_ltb a b = true -> lex_ltb b a = false.
Proof.
  intro H. destruct (lex_ltb b a) eqn:E; [|reflexivity].
  pose proof (lex_ltb_trans _ _ _ H E) as H'. rewrite lex_ltb_irrefl in H'. discriminate.
Qed.

Lemma NoDup_snoc {A} (l : list A) x : NoDup l -> ~ In x l -> NoDup (l ++ [x]).
Proof.
  intros Hn Hx. apply (NoDup_Add (Add_app x l [])). rewrite app_nil_r. split; assumption.
Qed.

Lemma NoDup_app_inv {A} (a b : list A) : NoDup (a ++ b) -> NoDup a /\ NoDup b /\ forall x, In x a -> ~ In x b.
Proof.
  induction a as [|y a IH]; cbn [app]; intro ND; [repeat split; [constructor|exact ND|intros x []]|].
  inversion ND as [|? ? Hy ND']; subst. destruct (IH ND') as (Na & Nb & Hd). rewrite in_app_iff in Hy.
  repeat split; [constructor; tauto|exact Nb|]. intros x [<-|Hx]; [tauto|apply Hd, Hx].
Qed.

Lemma NoDup_map_filter {A B} (f : A -> B) (p : A -> bool) l :
  NoDup (map f l) -> NoDup (map f (filter p l)).
Proof.
  induction l as [|x l IH]; intro H; cbn [filter map]; [constructor|].
  cbn [map] in H. apply NoDup_cons_iff in H as [Hx Hl].
  destruct (p x); [|exact (IH Hl)]. cbn [map]. constructor; [|exact (IH Hl)].
  intros (y & Hy & Hf)%in_map_iff. apply filter_In in Hf as [Hf _].
  apply Hx, in_map_iff. exists y. split; assumption.
Qed.

Lemma NoDup_map_from {A B C} (f : A -> B) (g : A -> C) l :
  NoDup (map g l) -> (forall x y, In x l -> In y l -> f x = f y -> g x = g y) -> NoDup (map f l).
Proof.
  induction l as [|a l IH]; intros ND Hinj; [constructor|]. cbn [map] in *. inversion ND as [|? ? Hnot ND']; subst.
  constructor.
  - intro Hin. apply in_map_iff in Hin as (y & Ey & Hy). apply Hnot.
    rewrite (Hinj a y (or_introl eq_refl) (or_intror Hy) (eq_sym Ey)). apply in_map, Hy.
  - apply IH; [exact ND'|]. intros x y Hx Hy. apply Hinj; right; assumption.
Qed.

Lemma NoDup_map_eq {A B} (f : A -> B) l x y : NoDup (map f l) -> In x l -> In y l -> f x = f y -> x = y.
Proof.
  induction l as [|a l IH]; cbn [map]; intros N Hx Hy E; [contradiction|].
  apply NoDup_cons_iff in N as [Na Nl]. destruct Hx as [<-|Hx], Hy as [<-|Hy]; auto; exfalso; apply Na.
  - rewrite E. apply in_map, Hy.
  - rewrite <- E. apply in_map, Hx.
Qed.

Lemma find_app {A} (f : A -> bool) l1 l2 :
  find f (l1 ++ l2) = match find f l1 with Some x => Some x | None => find f l2 end.
Proof. induction l1 as [|x l1 IH]; cbn [app find]; [reflexivity|]. destruct (f x); [reflexivity|exact IH]. Qed.

Lemma find_map {A B} (f : B -> bool) (g : A -> B) l : find f (map g l) = option_map g (find (fun x => f (g x)) l).
Proof. induction l as [|x l IH]; cbn [map find]; [reflexivity|]. destruct (f (g x)); [reflexivity|exact IH]. Qed.

Lemma find_unique {A} (f : A -> bytes) l x :
  NoDup (map f l) -> In x l -> find (fun y => bytes_eqb (f y) (f x)) l = Some x.
Proof.
  induction l as [|y l IH]; intros ND Hx; [contradiction|]. cbn [map find] in *. inversion ND as [|? ? Hy ND']; subst.
  destruct Hx as [->|Hx]; [rewrite bytes_eqb_refl; reflexivity|].
  assert (bytes_eqb (f y) (f x) = false) as -> by (apply bytes_eqb_neq; intro E; apply Hy; rewrite E; apply in_map, Hx).
  apply IH; assumption.
Qed.

Lemma find_all_false {A} (f : A -> bool) l : (forall x, In x l -> f x = false) -> find f l = None.
Proof.
  induction l as [|x l IH]; intro H; cbn [find]; [reflexivity|].
  rewrite (H x (or_introl eq_refl)). apply IH. intros y Hy. apply H. right. exact Hy.
Qed.

Lemma forallb_rev {A} (P : A -> bool) l : forallb P (rev l) = forallb P l.
Proof.
  induction l as [|x l IH]; cbn [rev forallb]; [reflexivity|].
  rewrite forallb_app, IH. cbn [forallb]. rewrite andb_true_r. apply andb_comm.
Qed.

Lemma forallb_impl {A} (P Q : A -> bool) l : (forall x, P x = true -> Q x = true) ->
  forallb P l = true -> forallb Q l = true.
Proof.
  intros HPQ. induction l as [|x l IH]; cbn [forallb]; [reflexivity|]. intros H.
  apply andb_true_iff in H as [Hx Hl]. rewrite (HPQ x Hx), IH by exact Hl. reflexivity.
Qed.

Lemma forallb_not_In {A} (P : A -> bool) l x : forallb P l = true -> P x = false -> ~ In x l.
Proof. intros Hl Hx Hin. rewrite forallb_forall in Hl. rewrite (Hl x Hin) in Hx. discriminate Hx. Qed.

Lemma filter_id {A} (P : A -> bool) l : forallb P l = true -> filter P l = l.
Proof.
  induction l as [|x l IH]; cbn [forallb filter]; [reflexivity|]. intros H.
  apply andb_true_iff in H as [Hx Hl]. rewrite Hx, IH by exact Hl. reflexivity.
Qed.

Lemma perm_filter {A} (f : A -> bool) a b : Permutation a b -> Permutation (filter f a) (filter f b).
Proof.
  induction 1 as [|x a b P IH|x y a|a b c P1 IH1 P2 IH2]; cbn [filter].
  - constructor.
  - destruct (f x); [apply perm_skip|]; exact IH.
  - destruct (f x), (f y); try reflexivity. apply perm_swap.
  - eapply perm_trans; eassumption.
Qed.

Lemma forallb_perm {A} (f : A -> bool) a b : Permutation a b -> forallb f a = true -> forallb f b = true.
Proof.
  intros P H. apply forallb_forall. intros x Hx. rewrite forallb_forall in H. apply H.
  eapply Permutation_in; [apply Permutation_sym, P|exact Hx].
Qed.

Lemma Forall2_refl {A} (R : A -> A -> Prop) (l : list A) : (forall x, R x x) -> Forall2 R l l.
Proof. intro H. induction l; constructor; auto. Qed.

Lemma Forall2_map_r {A B} (R : A -> B -> Prop) (f : A -> B) l :
  Forall (fun x => R x (f x)) l -> Forall2 R l (map f l).
Proof. induction 1; constructor; assumption. Qed.

Lemma Forall2_map_same {A B C} (R : B -> C -> Prop) (f : A -> B) (g : A -> C) l :
  (forall x, In x l -> R (f x) (g x)) -> Forall2 R (map f l) (map g l).
Proof.
  induction l as [|x l IH]; intro H; cbn [map]; constructor.
  - apply H. left. reflexivity.
  - apply IH. intros y Hy. apply H. right. exact Hy.
Qed.

Lemma map_eq_Forall2 {A B} (f : A -> B) l : forall l', map f l = map f l' -> Forall2 (fun a b => f a = f b) l l'.
Proof.
  induction l as [|a l IH]; intros [|b l'] H; try discriminate H; constructor.
  - exact (f_equal (hd (f a)) H).
  - apply IH. exact (f_equal (@tl _) H).
Qed.

Lemma Forall2_impl_Forall {A B} (P : A -> Prop) (R Q : A -> B -> Prop) l1 l2 :
  (forall x y, P x -> R x y -> Q x y) -> Forall P l1 -> Forall2 R l1 l2 -> Forall2 Q l1 l2.
Proof.
  intros H HP F. induction F as [|x y l1 l2 Rxy F IH]; constructor.
  - exact (H x y (Forall_inv HP) Rxy).
  - exact (IH (Forall_inv_tail HP)).
Qed.

Lemma Forall2_In_r {A B} (R : A -> B -> Prop) a b y : Forall2 R a b -> In y b -> exists x, In x a /\ R x y.
Proof.
  induction 1 as [|x0 y0 a b Hxy F IH]; intro Hin; [contradiction|]. destruct Hin as [<-|Hin].
  - exists x0. split; [left; reflexivity|exact Hxy].
  - destruct (IH Hin) as (x & Hx & Rx). exists x. split; [right; exact Hx|exact Rx].
Qed.

Lemma option_map_some {A B} (f : A -> B) o v : option_map f o = Some v -> exists a, o = Some a /\ f a = v.
Proof. destruct o as [a|]; [intros [= <-]; eauto|discriminate]. Qed.
