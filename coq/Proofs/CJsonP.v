(* The formatter of olpc-cjson computes the OLPC canonical form (C11): run on the events serde_json
   issues for a value, the state machine of Model/CJson.v writes what the recursive specification
   says, and fails where it fails (canon_impl_is_spec). Before that, what the specification's
   sort_members means; after it, the view through which the canonical form sees an object. *)
From ToughV Require Import Model.Base Model.Json Model.CJson Proofs.BaseP.
From Coq Require Import Permutation Sorted.

Section jv_ind2.
  Variable P : jv -> Prop.
  Hypothesis HN : P JNull.
  Hypothesis HB : forall b, P (JBool b).
  Hypothesis HI : forall z, P (JInt z).
  Hypothesis HF : P JFloat.
  Hypothesis HS : forall s, P (JStr s).
  Hypothesis HA : forall l, Forall P l -> P (JArr l).
  Hypothesis HO : forall m, Forall (fun kv => P (snd kv)) m -> P (JObj m).
  Fixpoint jv_ind2 (v : jv) : P v :=
    match v with
    | JNull => HN | JBool b => HB b | JInt z => HI z | JFloat => HF | JStr s => HS s
    | JArr l => HA l ((fix go (l : list jv) : Forall P l :=
                         match l with
                         | [] => Forall_nil _
                         | x :: t => Forall_cons _ (jv_ind2 x) (go t)
                         end) l)
    | JObj m => HO m ((fix go (m : list (bytes * jv)) : Forall (fun kv => P (snd kv)) m :=
                         match m with
                         | [] => Forall_nil _
                         | kv :: t => Forall_cons _ (jv_ind2 (snd kv)) (go t)
                         end) m)
    end.
End jv_ind2.

(* the nested loops of [emit] and of [canon_spec], under names *)
Fixpoint emit_items (first : bool) (l : list jv) : list ev :=
  match l with
  | [] => []
  | x :: t => EBeginArrayValue first :: emit x ++ EEndArrayValue :: emit_items false t
  end.
Fixpoint emit_members (first : bool) (m : list (bytes * jv)) : list ev :=
  match m with
  | [] => []
  | (k, x) :: t => EBeginKey first :: emit_str k ++ EEndKey :: EBeginValue :: emit x
                   ++ EEndValue :: emit_members false t
  end.
Lemma emit_arr l : emit (JArr l) = EBeginArray :: emit_items true l ++ [EEndArray].
Proof. reflexivity. Qed.
Lemma emit_obj m : emit (JObj m) = EBeginObject :: emit_members true m ++ [EEndObject].
Proof. reflexivity. Qed.

Section SpecNames.
  Variable nfc : bytes -> bytes.
  Fixpoint spec_items (first : bool) (l : list jv) : option bytes :=
    match l with
    | [] => Some []
    | x :: t => match canon_spec nfc x, spec_items false t with
                | Some b, Some r => Some ((if first then [] else [44]) ++ b ++ r)
                | _, _ => None
                end
    end.
  Fixpoint spec_members (m : list (bytes * jv)) : option (list (bytes * bytes)) :=
    match m with
    | [] => Some []
    | (k, x) :: t => match canon_spec nfc x, spec_members t with
                     | Some b, Some r => Some ((nfc k, b) :: r)
                     | _, _ => None
                     end
    end.
  Lemma spec_arr l : canon_spec nfc (JArr l) =
    match spec_items true l with Some body => Some ([91] ++ body ++ [93]) | None => None end.
  Proof. reflexivity. Qed.
  Lemma spec_obj m : canon_spec nfc (JObj m) =
    match spec_members m with
    | Some es => Some ([123] ++ print_spec_members true (sort_members es) ++ [125])
    | None => None
    end.
  Proof. reflexivity. Qed.

  Lemma canon_spec_arr_inv l b : canon_spec nfc (JArr l) = Some b ->
    exists body, spec_items true l = Some body /\ b = 91 :: body ++ [93].
  Proof. rewrite spec_arr. destruct (spec_items true l) as [body|]; [|discriminate]. intros [= <-]. eauto. Qed.

  Lemma canon_spec_obj_inv m b : canon_spec nfc (JObj m) = Some b ->
    exists es, spec_members m = Some es /\ b = 123 :: print_spec_members true (sort_members es) ++ [125].
  Proof. rewrite spec_obj. destruct (spec_members m) as [es|]; [|discriminate]. intros [= <-]. eauto. Qed.

  Lemma spec_items_cons_inv first x t body : spec_items first (x :: t) = Some body ->
    exists b r, canon_spec nfc x = Some b /\ spec_items false t = Some r
                /\ body = (if first then [] else [44]) ++ b ++ r.
  Proof.
    cbn [spec_items]. destruct (canon_spec nfc x) as [b|]; [|discriminate].
    destruct (spec_items false t) as [r|]; [|discriminate]. intros [= <-]. eauto.
  Qed.

  Lemma canon_spec_arr_none l x : In x l -> canon_spec nfc x = None -> canon_spec nfc (JArr l) = None.
  Proof.
    intros Hin C. rewrite spec_arr.
    enough (E : forall first, spec_items first l = None) by (rewrite E; reflexivity).
    induction l as [|y l IH]; intro first; [contradiction|]. cbn [spec_items].
    destruct Hin as [->|Hin]; [rewrite C; reflexivity|].
    rewrite (IH Hin). destruct (canon_spec nfc y); reflexivity.
  Qed.

  Lemma canon_spec_obj_none m k x : In (k, x) m -> canon_spec nfc x = None -> canon_spec nfc (JObj m) = None.
  Proof.
    intros Hin C. rewrite spec_obj.
    enough (E : spec_members m = None) by (rewrite E; reflexivity).
    induction m as [|[k' y] m IH]; [contradiction|]. cbn [spec_members].
    destruct Hin as [[= -> ->]|Hin]; [rewrite C; reflexivity|].
    rewrite (IH Hin). destruct (canon_spec nfc y); reflexivity.
  Qed.
End SpecNames.

(* Members are inserted one after the other: every fact about sort_members is a fact about
   bt_insert carried along by induction from the right (sort_members_snoc). *)
Section Sorting.
  Context {V : Type}.
  Implicit Types m : list (bytes * V).
  Definition klt (a b : bytes * V) : Prop := lex_ltb (fst a) (fst b) = true.

  Lemma klt_trans a b c : klt a b -> klt b c -> klt a c.
  Proof. unfold klt. apply lex_ltb_trans. Qed.

  Lemma klt_irrefl a : ~ klt a a.
  Proof. unfold klt. rewrite lex_ltb_irrefl. discriminate. Qed.

  Lemma Forall_bt_insert (P : bytes * V -> Prop) k v m : P (k, v) -> Forall P m -> Forall P (bt_insert k v m).
  Proof.
    intro Hk. induction 1 as [|[k' v'] m Hx Hm IH]; cbn [bt_insert]; [constructor; [exact Hk|constructor]|].
    destruct (lex_ltb k k'); [constructor; [exact Hk|constructor; assumption]|].
    destruct (bytes_eqb k k'); constructor; assumption.
  Qed.

  Lemma bt_insert_sorted k v m : StronglySorted klt m -> StronglySorted klt (bt_insert k v m).
  Proof.
    induction 1 as [|[k' v'] m S IH F]; cbn [bt_insert]; [repeat constructor|].
    destruct (lex_ltb k k') eqn:E1.
    - (* before the head, hence before every member *)
      constructor; [constructor; assumption|]. constructor; [exact E1|].
      eapply Forall_impl; [|exact F]. intros e He. exact (klt_trans (k, v) (k', v') e E1 He).
    - destruct (bytes_eqb_spec k k') as [<-|E2]; [constructor; [exact S|exact F]|].
      constructor; [exact IH|]. apply Forall_bt_insert; [|exact F]. unfold klt. cbn [fst].
      destruct (lex_ltb k' k) eqn:E3; [reflexivity|]. destruct E2. apply lex_ltb_total; assumption.
  Qed.

  Lemma bt_insert_perm k v m : ~ In k (map fst m) -> Permutation ((k, v) :: m) (bt_insert k v m).
  Proof.
    induction m as [|[k' v'] t IH]; intro N; cbn [bt_insert]; [reflexivity|].
    destruct (lex_ltb k k'); [reflexivity|].
    destruct (bytes_eqb_spec k k') as [<-|_].
    - exfalso. apply N. left. reflexivity.
    - eapply perm_trans; [apply perm_swap|]. apply perm_skip. apply IH. intro H. apply N. right. exact H.
  Qed.

  Lemma find_assoc_bt_insert k k' v' m :
    find_assoc k (bt_insert k' v' m) = if bytes_eqb k k' then Some v' else find_assoc k m.
  Proof.
    induction m as [|[k0 v0] m IH]; cbn [bt_insert find_assoc]; [reflexivity|].
    destruct (lex_ltb k' k0); [reflexivity|].
    destruct (bytes_eqb_spec k' k0) as [<-|E0]; cbn [find_assoc].
    - destruct (bytes_eqb k k'); reflexivity.
    - destruct (bytes_eqb_spec k k0) as [->|_]; [|exact IH].
      destruct (bytes_eqb_spec k0 k') as [->|_]; [contradiction E0|]; reflexivity.
  Qed.

  Definition ins (acc : list (bytes * V)) (kv : bytes * V) := bt_insert (fst kv) (snd kv) acc.

  Lemma sort_members_fold m : sort_members m = fold_left ins m [].
  Proof. reflexivity. Qed.

  Lemma sort_members_snoc m k v : sort_members (m ++ [(k, v)]) = bt_insert k v (sort_members m).
  Proof. unfold sort_members. rewrite fold_left_app. reflexivity. Qed.

  Lemma sort_members_sorted m : StronglySorted klt (sort_members m).
  Proof.
    induction m as [|[k v] m IH] using rev_ind; [constructor|].
    rewrite sort_members_snoc. apply bt_insert_sorted, IH.
  Qed.

  Lemma Forall_sort_members (P : bytes * V -> Prop) m : Forall P m -> Forall P (sort_members m).
  Proof.
    induction m as [|[k v] m IH] using rev_ind; intro H; [constructor|].
    apply Forall_app in H as [Hm Hk]. rewrite sort_members_snoc.
    apply Forall_bt_insert; [exact (Forall_inv Hk)|exact (IH Hm)].
  Qed.

  Lemma find_assoc_sort_members k m : find_assoc k (sort_members m) = find_assoc k (rev m).
  Proof.
    induction m as [|[k' v'] m IH] using rev_ind; [reflexivity|].
    rewrite sort_members_snoc, find_assoc_bt_insert, rev_unit. cbn [find_assoc].
    destruct (bytes_eqb k k'); [reflexivity|exact IH].
  Qed.

  Lemma find_assoc_sort_head k v m : ~ In k (map fst m) -> find_assoc k (sort_members ((k, v) :: m)) = Some v.
  Proof.
    intro N. rewrite find_assoc_sort_members. cbn [rev]. rewrite find_assoc_app, find_assoc_notin.
    - cbn [find_assoc]. rewrite bytes_eqb_refl. reflexivity.
    - rewrite map_rev, <- in_rev. exact N.
  Qed.

  Lemma sort_members_perm m : NoDup (map fst m) -> Permutation m (sort_members m).
  Proof.
    induction m as [|[k v] m IH] using rev_ind; intro N; [reflexivity|].
    rewrite map_app in N. apply NoDup_remove in N as [Nm Nk]. rewrite app_nil_r in Nm, Nk.
    rewrite sort_members_snoc.
    eapply perm_trans; [apply Permutation_sym, Permutation_cons_append|].
    eapply perm_trans; [apply perm_skip, IH, Nm|]. apply bt_insert_perm. intro H. apply Nk.
    eapply Permutation_in; [apply Permutation_sym, Permutation_map, IH, Nm|exact H].
  Qed.

  Lemma sorted_nodup m : StronglySorted klt m -> NoDup (map fst m).
  Proof.
    induction 1 as [|a l S IH F]; [constructor|]. cbn [map]. constructor; [|exact IH].
    intro Hin. apply in_map_iff in Hin as (e & Ee & Hin). rewrite Forall_forall in F.
    apply (klt_irrefl a). unfold klt. rewrite <- Ee at 2. exact (F e Hin).
  Qed.

  Lemma sorted_perm_eq m1 : forall m2,
    StronglySorted klt m1 -> StronglySorted klt m2 -> Permutation m1 m2 -> m1 = m2.
  Proof.
    induction m1 as [|a m1 IH]; intros m2 S1 S2 P.
    - symmetry. exact (Permutation_nil P).
    - destruct m2 as [|b m2]; [apply Permutation_sym, Permutation_nil in P; discriminate|].
      apply StronglySorted_inv in S1 as [S1 F1]. apply StronglySorted_inv in S2 as [S2 F2].
      assert (a = b) as <-.
      { (* each head occurs in the other list; were it in the tail, each would come before the other *)
        assert (Ha : In a (b :: m2)) by (eapply Permutation_in; [exact P|left; reflexivity]).
        assert (Hb : In b (a :: m1)) by (eapply Permutation_in; [apply Permutation_sym, P|left; reflexivity]).
        destruct Ha as [Ha|Ha]; [symmetry; exact Ha|]. destruct Hb as [Hb|Hb]; [exact Hb|].
        rewrite Forall_forall in F1, F2. destruct (klt_irrefl a).
        exact (klt_trans a b a (F1 b Hb) (F2 a Ha)). }
      f_equal. apply IH; [exact S1|exact S2|]. exact (Permutation_cons_inv P).
  Qed.

  Theorem sort_members_order_independent m1 m2 :
    Permutation m1 m2 -> NoDup (map fst m1) -> sort_members m1 = sort_members m2.
  Proof.
    intros P N.
    assert (N2 : NoDup (map fst m2)) by (eapply Permutation_NoDup; [apply Permutation_map, P|exact N]).
    apply sorted_perm_eq; try apply sort_members_sorted.
    eapply perm_trans; [apply Permutation_sym, sort_members_perm, N|].
    eapply perm_trans; [exact P|apply sort_members_perm, N2].
  Qed.

  Lemma sort_members_idem m : sort_members (sort_members m) = sort_members m.
  Proof.
    apply sorted_perm_eq; try apply sort_members_sorted.
    apply Permutation_sym, sort_members_perm, sorted_nodup, sort_members_sorted.
  Qed.
End Sorting.

(* the map over the values may look at the key, as lift_entry does *)
Lemma bt_insert_map {V W} (f : bytes -> V -> W) k v (m : list (bytes * V)) :
  bt_insert k (f k v) (map (fun kv => (fst kv, f (fst kv) (snd kv))) m)
  = map (fun kv => (fst kv, f (fst kv) (snd kv))) (bt_insert k v m).
Proof.
  induction m as [|[k' v'] m IH]; [reflexivity|]. cbn [map bt_insert fst snd].
  destruct (lex_ltb k k'); [reflexivity|]. destruct (bytes_eqb k k'); [reflexivity|].
  cbn [map fst snd]. rewrite IH. reflexivity.
Qed.

Lemma sort_members_map {V W} (f : bytes -> V -> W) (m : list (bytes * V)) :
  sort_members (map (fun kv => (fst kv, f (fst kv) (snd kv))) m)
  = map (fun kv => (fst kv, f (fst kv) (snd kv))) (sort_members m).
Proof.
  induction m as [|[k v] m IH] using rev_ind; [reflexivity|].
  rewrite map_app. cbn [map fst snd]. rewrite !sort_members_snoc, IH. apply bt_insert_map.
Qed.

Lemma wr_nil s : wr s [] = s.
Proof.
  destruct s as [u [|[mp k v d] t]]; unfold wr; cbn [stack out o_done o_map o_key o_val].
  - rewrite app_nil_r. reflexivity.
  - destruct d; rewrite app_nil_r; reflexivity.
Qed.

Lemma wr_wr s a b : wr (wr s a) b = wr s (a ++ b).
Proof.
  destruct s as [u [|[mp k v d] t]]; unfold wr; cbn [stack out o_done o_map o_key o_val].
  - rewrite app_assoc. reflexivity.
  - destruct d; cbn [stack out o_done o_map o_key o_val]; rewrite app_assoc; reflexivity.
Qed.

Local Notation plain := (Forall (fun c => needs_escape c = false)).

Lemma esc_plain a : plain a -> esc a = a.
Proof.
  induction 1 as [|c a Hc Ha IH]; [reflexivity|]. cbn [esc]. rewrite IH.
  unfold esc_byte. unfold needs_escape in Hc.
  apply orb_false_iff in Hc as [Hc1 Hc3]. apply orb_false_iff in Hc1 as [Hc1 Hc2].
  rewrite Hc2, Hc3. reflexivity.
Qed.

Lemma esc_app a b : esc (a ++ b) = esc a ++ esc b.
Proof. induction a as [|c a IH]; [reflexivity|]. cbn [app esc]. rewrite IH, app_assoc. reflexivity. Qed.

(* the repair of F6: unescape_key recovers a key from its serialized form *)
Lemma unesc_esc k : unesc (esc k) = k.
Proof.
  induction k as [|c k IH]; [reflexivity|]. cbn [esc]. unfold esc_byte.
  destruct ((c =? 34) || (c =? 92)) eqn:E.
  - cbn [app unesc]. change (92 =? 92) with true. cbv iota. rewrite IH. reflexivity.
  - cbn [app unesc]. apply orb_false_iff in E as [_ E]. rewrite E, IH. reflexivity.
Qed.

Lemma strip_quotes_quote k : strip_quotes (quote k) = esc k.
Proof.
  unfold quote, strip_quotes. cbn [app]. change (34 =? 34) with true. cbv iota.
  rewrite rev_app_distr. cbn [rev app]. change (34 =? 34) with true. cbv iota.
  apply rev_involutive.
Qed.

Lemma unescape_key_quote k : unescape_key (quote k) = k.
Proof. unfold unescape_key. rewrite strip_quotes_quote. apply unesc_esc. Qed.

Section Run.
  Variable nfc : bytes -> bytes.
  Variable sortkey : bytes -> bytes.
  Notation run := (run nfc sortkey).
  Notation step := (step nfc sortkey).

  Lemma run_app s a b : run s (a ++ b) = match run s a with Some s' => run s' b | None => None end.
  Proof.
    revert s; induction a as [|e a IH]; intro s; cbn [app CJson.run]; [reflexivity|].
    destruct (step s e); [apply IH|reflexivity].
  Qed.

  Lemma run_cons s e r : run s (e :: r) = match step s e with Some s' => run s' r | None => None end.
  Proof. reflexivity. Qed.

  (* hypotheses on normalisation: it does not interact with the characters JSON escapes *)
  Hypothesis nfc_nil : nfc [] = [].
  Hypothesis nfc_split : forall a c b, needs_escape c = true -> nfc (a ++ c :: b) = nfc a ++ c :: nfc b.
  Hypothesis nfc_plain : forall a, plain a -> plain (nfc a).

  (* a string goes out fragment by fragment, [acc] being the escape-free fragment read so far, reversed *)
  Lemma run_frag s acc : plain acc -> run s (frag acc) = Some (wr s (esc (nfc (rev acc)))).
  Proof.
    intro H. destruct acc as [|c acc].
    - cbn [frag CJson.run rev]. rewrite nfc_nil. cbn [esc]. rewrite wr_nil. reflexivity.
    - cbn [frag CJson.run CJson.step]. rewrite esc_plain; [reflexivity|].
      apply nfc_plain. apply Forall_rev. exact H.
  Qed.

  Lemma run_split s0 : forall acc s, plain acc ->
    run s (split_str acc s0) = Some (wr s (esc (nfc (rev acc ++ s0)))).
  Proof.
    induction s0 as [|c s0 IH]; intros acc s Hacc.
    - cbn [split_str]. rewrite app_nil_r. apply run_frag, Hacc.
    - cbn [split_str]. destruct (needs_escape c) eqn:E.
      + rewrite run_app, run_frag by exact Hacc. rewrite run_cons. cbn [CJson.step].
        rewrite (IH [] _ (Forall_nil _)). cbn [rev app]. rewrite !wr_wr.
        rewrite nfc_split by exact E. rewrite esc_app. cbn [esc]. rewrite <- ?app_assoc. reflexivity.
      + rewrite IH by (constructor; assumption). cbn [rev]. rewrite <- app_assoc. reflexivity.
  Qed.

  Lemma run_emit_str s k : run s (emit_str k) = Some (wr s (quote (nfc k))).
  Proof.
    unfold emit_str. rewrite run_cons. cbn [CJson.step].
    rewrite run_app, (run_split k [] _ (Forall_nil _)). cbn [rev app CJson.run CJson.step].
    rewrite !wr_wr. reflexivity.
  Qed.

  Hypothesis sortkey_quote : forall k, sortkey (quote k) = k.

  Definition run_ok (v : jv) : Prop := forall s,
    run s (emit v) = match canon_spec nfc v with Some b => Some (wr s b) | None => None end.

  Lemma run_items l : Forall run_ok l -> forall first s,
    run s (emit_items first l) =
    match spec_items nfc first l with Some b => Some (wr s b) | None => None end.
  Proof.
    induction 1 as [|x l Hx Hl IH]; intros first s.
    - cbn [emit_items spec_items CJson.run]. rewrite wr_nil. reflexivity.
    - cbn [emit_items spec_items]. rewrite run_cons. cbn [CJson.step].
      rewrite run_app. rewrite Hx. destruct (canon_spec nfc x) as [b|]; [|reflexivity].
      rewrite run_cons. cbn [CJson.step]. rewrite IH.
      destruct (spec_items nfc false l) as [r|]; [|reflexivity].
      destruct first; cbn [app]; rewrite !wr_wr; reflexivity.
  Qed.

  (* [mkst u mp k v d t] is a state whose innermost open object has the map [mp] and the buffers [k] and [v],
     the writer standing at the value iff [d]. *)
  Definition mkst u mp k v d t : st :=
    {| out := u; stack := {| o_map := mp; o_key := k; o_val := v; o_done := d |} :: t |}.
  Lemma step_BO s : step s EBeginObject = Some (mkst (out (wr s [123])) [] [] [] false (stack (wr s [123]))).
  Proof. reflexivity. Qed.
  Lemma step_BK f u mp k v d t : step (mkst u mp k v d t) (EBeginKey f) = Some (mkst u mp k v false t).
  Proof. reflexivity. Qed.
  Lemma step_EK u mp k v d t : step (mkst u mp k v d t) EEndKey = Some (mkst u mp k v true t).
  Proof. reflexivity. Qed.
  Lemma step_EV u mp k v d t : step (mkst u mp k v d t) EEndValue =
    Some (mkst u (bt_insert (sortkey k) (k, v) mp) [] [] d t).
  Proof. reflexivity. Qed.
  Lemma step_EO s mp k v d : step (mkst (out s) mp k v d (stack s)) EEndObject =
    Some (wr s (print_members true mp ++ [125])).
  Proof. destruct s; reflexivity. Qed.
  Lemma wr_key u mp k v t b : wr (mkst u mp k v false t) b = mkst u mp (k ++ b) v false t.
  Proof. reflexivity. Qed.
  Lemma wr_val u mp k v t b : wr (mkst u mp k v true t) b = mkst u mp k (v ++ b) true t.
  Proof. reflexivity. Qed.

  (* the formatter's map holds, under the key, the serialized key beside the serialized value *)
  Definition lift_entry (kb : bytes * bytes) : bytes * (bytes * bytes) :=
    (fst kb, (quote (fst kb), snd kb)).

  Lemma run_members m : Forall (fun kv => run_ok (snd kv)) m -> forall first u mp d t,
    run (mkst u mp [] [] d t) (emit_members first m) =
    match spec_members nfc m with
    | Some es => Some (mkst u (fold_left ins (map lift_entry es) mp) [] []
                            (match m with [] => d | _ => true end) t)
    | None => None
    end.
  Proof.
    induction 1 as [|[k x] m Hx Hm IH]; intros first u mp d t.
    - reflexivity.
    - cbn [emit_members spec_members snd] in *. rewrite run_cons, step_BK.
      rewrite run_app, run_emit_str, wr_key. cbn [app].
      rewrite run_cons, step_EK. rewrite run_cons. cbn [CJson.step].
      rewrite run_app, Hx. destruct (canon_spec nfc x) as [b|]; [|reflexivity].
      rewrite wr_val. cbn [app]. rewrite run_cons, step_EV.
      rewrite IH. destruct (spec_members nfc m) as [es|]; [|reflexivity].
      rewrite sortkey_quote. destruct m; reflexivity.
  Qed.

  Lemma print_lift m : forall first, print_members first (map lift_entry m) = print_spec_members first m.
  Proof.
    induction m as [|[k b] m IH]; intro first; [reflexivity|].
    cbn [map lift_entry print_members print_spec_members fst snd]. rewrite IH. reflexivity.
  Qed.

  Lemma sort_members_lift es : sort_members (map lift_entry es) = map lift_entry (sort_members es).
  Proof. exact (sort_members_map (fun k b => (quote k, b)) es). Qed.

  Theorem run_emit_spec v : run_ok v.
  Proof.
    induction v as [| b | z | | k | l IHl | m IHm] using jv_ind2; intro s.
    - reflexivity.
    - destruct b; reflexivity.
    - reflexivity.
    - reflexivity.
    - apply run_emit_str.
    - rewrite emit_arr, spec_arr, run_cons. cbn [CJson.step]. rewrite run_app, run_items by exact IHl.
      destruct (spec_items nfc true l) as [body|]; [|reflexivity].
      cbn [CJson.run CJson.step]. rewrite !wr_wr. reflexivity.
    - rewrite emit_obj, spec_obj, run_cons, step_BO, run_app, run_members by exact IHm.
      destruct (spec_members nfc m) as [es|]; [|reflexivity].
      rewrite run_cons, step_EO. cbn [CJson.run].
      rewrite <- sort_members_fold, sort_members_lift, print_lift, wr_wr. reflexivity.
  Qed.
End Run.

Theorem canon_impl_is_spec nfc :
  nfc [] = [] ->
  (forall a c b, needs_escape c = true -> nfc (a ++ c :: b) = nfc a ++ c :: nfc b) ->
  (forall a, Forall (fun c => needs_escape c = false) a -> Forall (fun c => needs_escape c = false) (nfc a)) ->
  forall v, canon_impl nfc v = canon_spec nfc v.
Proof.
  intros H0 H1 H2 v. unfold canon_impl, canon_run.
  rewrite (run_emit_spec nfc unescape_key H0 H1 H2 unescape_key_quote v st0).
  destruct (canon_spec nfc v) as [b|]; reflexivity.
Qed.

(* The canonical form sees an object through its view: the table of (normalised name, canonical
   form of the value). Objects whose views are permutations of each other (names distinct) have the
   same canonical form: order independence in C11, and the shape of losslessness in C12, where the
   members written differ from those read but not in canonical form. *)
Definition some_snd {K B} (e : K * B) : K * option B := (fst e, Some (snd e)).

Section View.
  Variable nfc : bytes -> bytes.

  Definition cmap (m : list (bytes * jv)) : list (bytes * option bytes) :=
    map (fun kv => (nfc (fst kv), canon_spec nfc (snd kv))) m.

  Lemma spec_members_view m es : spec_members nfc m = Some es <-> cmap m = map some_snd es.
  Proof.
    split.
    - revert es. induction m as [|[k x] m IH]; cbn [spec_members cmap map fst snd]; intro es;
        [intros [= <-]; reflexivity|].
      destruct (canon_spec nfc x) as [b|]; [|discriminate]. destruct (spec_members nfc m) as [r|]; [|discriminate].
      intros [= <-]. cbn [map]. rewrite <- (IH r eq_refl). reflexivity.
    - revert m. induction es as [|[k b] es IH]; intros [|[k' x] m]; cbn [spec_members cmap map fst snd];
        try discriminate; [reflexivity|].
      unfold some_snd at 1. cbn [fst snd]. intros [= -> -> E]. rewrite (IH _ E). reflexivity.
  Qed.

  Lemma spec_members_perm m1 m2 e1 : Permutation (cmap m1) (cmap m2) -> spec_members nfc m1 = Some e1 ->
    exists e2, spec_members nfc m2 = Some e2 /\ Permutation e1 e2.
  Proof.
    intros P H. apply spec_members_view in H. rewrite H in P.
    apply Permutation_sym, Permutation_map_inv in P as (e2 & E & P).
    exists e2. split; [apply spec_members_view, E|exact P].
  Qed.

  Lemma cmap_keys m : map fst (cmap m) = map (fun kv => nfc (fst kv)) m.
  Proof. unfold cmap. apply map_map. Qed.

  Lemma spec_members_keys m es : spec_members nfc m = Some es -> map fst es = map fst (cmap m).
  Proof. intro H. apply spec_members_view in H. rewrite H. symmetry. apply map_map. Qed.

  Theorem cs_obj_perm m1 m2 : Permutation (cmap m1) (cmap m2) -> NoDup (map fst (cmap m1)) ->
    canon_spec nfc (JObj m1) = canon_spec nfc (JObj m2).
  Proof.
    intros P N. rewrite !spec_obj. destruct (spec_members nfc m1) as [e1|] eqn:E1.
    - destruct (spec_members_perm _ _ _ P E1) as (e2 & -> & Pe).
      rewrite (sort_members_order_independent e1 e2 Pe); [reflexivity|].
      rewrite (spec_members_keys _ _ E1). exact N.
    - destruct (spec_members nfc m2) as [e2|] eqn:E2; [|reflexivity].
      destruct (spec_members_perm _ _ _ (Permutation_sym P) E2) as (e1 & E1' & _). congruence.
  Qed.
End View.

(* compositionality: the bytes of a compound value are a function of the bytes of its parts, also
   across two normalisation functions *)
Section Ext.
  Variables n1 n2 : bytes -> bytes.

  Theorem canon_spec_arr_ext l1 l2 : Forall2 (fun a b => canon_spec n1 a = canon_spec n2 b) l1 l2 ->
    canon_spec n1 (JArr l1) = canon_spec n2 (JArr l2).
  Proof.
    intro H. rewrite !spec_arr. replace (spec_items n2 true l2) with (spec_items n1 true l1); [reflexivity|].
    generalize true. induction H as [|x1 x2 l1 l2 Hx F IH]; intro first; [reflexivity|].
    cbn [spec_items]. rewrite Hx, IH. reflexivity.
  Qed.

  Theorem canon_spec_obj_ext m1 m2 :
    Forall2 (fun a b => n1 (fst a) = n2 (fst b) /\ canon_spec n1 (snd a) = canon_spec n2 (snd b)) m1 m2 ->
    canon_spec n1 (JObj m1) = canon_spec n2 (JObj m2).
  Proof.
    intro H. rewrite !spec_obj. replace (spec_members n2 m2) with (spec_members n1 m1); [reflexivity|].
    induction H as [|[k1 x1] [k2 x2] m1 m2 [Hk Hx] F IH]; [reflexivity|].
    cbn [spec_members fst snd] in *. rewrite Hk, Hx, IH. reflexivity.
  Qed.
End Ext.

(* a float somewhere in the value: what the specification refuses (C11_float_refused) *)
Inductive has_float : jv -> Prop :=
| hf_here : has_float JFloat
| hf_arr l x : In x l -> has_float x -> has_float (JArr l)
| hf_obj m k x : In (k, x) m -> has_float x -> has_float (JObj m).

(* the formatter as it was before the repair of F6 does not compute the specification: it printed
   "a!" before "a" *)
Definition f6_witness : jv := JObj [([97], JInt 1); ([97; 33], JInt 2)].
