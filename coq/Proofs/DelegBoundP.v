(* Work done by load_delegations (model with all repairs), whatever the repository serves:
   - the recursion is never deeper than the number of entries of the trusted snapshot (every role on
     the current path is listed there and no role is its own ancestor), so the fuel of the model is
     never exhausted once it exceeds that number: the real, unbounded recursion terminates;
   - every request is for the file of a role listed in the snapshot, under the name the entry
     determines; if no file is requested twice there are at most as many requests as entries. *)
From ToughV Require Import Model.Base Model.Pct Model.Deleg Model.Client.
From ToughV Require Import Proofs.BaseP Proofs.ClientP Proofs.DelegLoadP.

(* [err_in (fun c => c <> E_OutOfFuel)] of Proofs/ClientP.v, written out *)
Definition no_oof {A} (r : res A) : Prop :=
  match r with Err c _ => c <> E_OutOfFuel | Ok _ => True end.

Definition logs_only (P : bytes -> Prop) (w w' : world) : Prop :=
  exists reqs, w_log w' = w_log w ++ reqs /\ Forall P reqs.

Lemma logs_only_refl P w : logs_only P w w.
Proof. exists []. rewrite app_nil_r. auto. Qed.
Lemma logs_only_trans P a b c : logs_only P a b -> logs_only P b c -> logs_only P a c.
Proof.
  intros (r1 & E1 & F1) (r2 & E2 & F2). exists (r1 ++ r2). rewrite E2, E1, app_assoc. split; [reflexivity|].
  apply Forall_app. auto.
Qed.
Lemma logs_only_impl (P Q : bytes -> Prop) w w' : (forall p, P p -> Q p) -> logs_only P w w' -> logs_only Q w w'.
Proof. intros H (reqs & E & F). exists reqs. split; [exact E|exact (Forall_impl _ H F)]. Qed.

Section Bound.
  Variables (cfg : config) (srv : server) (snap : snapshot) (cs : bool) (lim : N).

  Definition anc_ok (anc : list bytes) : Prop :=
    NoDup anc /\ forall a, In a anc -> lookup (json_of a) (sn_meta snap) <> None \/ In a (top_ancestors fixed).

  Lemma anc_ok_length anc : anc_ok anc -> (length anc <= length (sn_meta snap) + 4)%nat.
  Proof.
    intros (ND & Hall).
    assert (ND' : NoDup (map json_of anc)).
    { clear Hall. induction ND as [|a l Hn ND IH]; cbn [map]; constructor; [|exact IH].
      intro Hin. apply in_map_iff in Hin as (b & E & Hb). apply json_of_inj in E. subst b. contradiction. }
    assert (Hincl : incl (map json_of anc) (map fst (sn_meta snap) ++ map json_of (top_ancestors fixed))).
    { intros k Hk. apply in_map_iff in Hk as (a & <- & Ha). apply in_or_app.
      destruct (Hall a Ha) as [Hl|Ht]; [left; apply lookup_some_in_keys, Hl|right; apply in_map, Ht]. }
    pose proof (NoDup_incl_length ND' Hincl) as Hlen. rewrite app_length, !map_length in Hlen.
    cbn [top_ancestors fixed fx_reserved_names length] in Hlen. exact Hlen.
  Qed.

  (* what the first loop has checked of every role it hands to the second, so that the path can go on
     through it *)
  Definition can_extend (anc : list bytes) (name : bytes) : Prop :=
    ~ In name anc /\ lookup (json_of name) (sn_meta snap) <> None.

  Lemma anc_ok_snoc anc name : anc_ok anc -> can_extend anc name -> anc_ok (anc ++ [name]).
  Proof.
    intros (ND & Hall) (Hn & Hl). split.
    - apply NoDup_snoc; assumption.
    - intros a Ha. apply in_app_or in Ha as [Ha|[<-|[]]]; [apply Hall, Ha|left; exact Hl].
  Qed.

  Lemma second_loop_term rec anc : anc_ok anc ->
    (forall dk rs name w r w', anc_ok (anc ++ [name]) -> rec dk rs (anc ++ [name]) w = (r, w') -> no_oof r) ->
    forall todo remaining w r w',
      (forall name t, In (name, t) remaining -> can_extend anc name) ->
      second_loop rec anc todo remaining w = (r, w') -> no_oof r.
  Proof.
    intros Hanc Hrec. induction todo as [|[h o] rest IH]; intros remaining w r w' Hrem H.
    { injection H as <- _. exact I. }
    rewrite second_loop_cons in H.
    destruct (lookup (dh_name h) remaining) as [t0|] eqn:Hl; [|injection H as <- _; cbn; discriminate].
    pose proof (Hrem _ _ (lookup_In _ _ _ Hl)) as Hext.
    destruct (complete_role rec (anc ++ [dh_name h]) t0 w) as [[t'|c a] w1] eqn:E1.
    2:{ (* the recursion failed: with its own code *)
        injection H as <- _. apply complete_role_inv in E1 as [(_ & [=] & _)|(_ & rd & E1 & Er)].
        apply (Hrec _ _ _ _ _ _ (anc_ok_snoc _ _ Hanc Hext)) in E1.
        destruct rd; [discriminate|injection Er as -> ->; exact E1]. }
    destruct (second_loop rec anc rest (assoc_remove (dh_name h) remaining) w1) as [[rs2|c a] w2] eqn:E2;
      injection H as <- _; [exact I|].
    refine (IH _ _ _ _ _ E2). intros name t Hin. eapply Hrem, assoc_remove_In, Hin.
  Qed.

  (* 4: the top-level role names, with which a path may start *)
  Theorem load_delegs_term : forall fuel dk rs anc w r w',
    anc_ok anc -> (length (sn_meta snap) + 4 < fuel + length anc)%nat ->
    load_delegs fixed cfg srv snap cs lim fuel dk rs anc w = (r, w') -> no_oof r.
  Proof.
    induction fuel as [|f IH]; intros dk rs anc w r w' Hanc Hlen H.
    { pose proof (anc_ok_length anc Hanc). lia. }
    cbn [load_delegs] in H.
    destruct (fetch_level fixed cfg srv snap cs lim dk rs rs anc [] w) as [[fetched|c a] w1] eqn:E.
    2:{ injection H as <- _.
        apply (fetch_level_sat fixed cfg srv snap cs lim (fun _ _ => True) (fun c => c <> E_OutOfFuel)) in E as [_ N];
          [exact N|auto..|]. intros c0 Hin ->. cbn [deleg_codes In] in Hin. intuition discriminate. }
    eapply (second_loop_term _ anc Hanc); [| |exact H].
    - intros dk' rs' name w0 r0 w0' Hanc'. apply IH; [exact Hanc'|]. rewrite app_length. cbn [length]. lia.
    - intros name t Hin. destruct (fetch_level_spec _ _ _ _ _ _ _ _ _ _ _ _ _ E name t Hin) as [[]|[Ha (m & _ & Hm & _)]].
      split; [intro Hi; apply mem_bytes_In in Hi; congruence|rewrite Hm; discriminate].
  Qed.

  Definition deleg_req (path : bytes) : Prop :=
    exists name m, lookup (json_of name) (sn_meta snap) = Some m /\ path = role_filename cs (m_version m) name.

  Theorem load_delegs_log fuel dk rs anc w r w' :
    load_delegs fixed cfg srv snap cs lim fuel dk rs anc w = (r, w') -> logs_only deleg_req w w'.
  Proof.
    intro H.
    apply (load_delegs_sat fixed cfg srv snap cs lim (logs_only deleg_req) (fun _ => True)) in H as [L _];
      [exact L|apply logs_only_refl|apply logs_only_trans| | |intros; exact I|exact I].
    - (* a request *) intros w0 name m Hm. exists [role_filename cs (m_version m) name]. split; [reflexivity|].
      constructor; [exists name, m; auto|constructor].
    - (* the record of a file name *) intros w0 p r0 w1 Eo. apply ds_op_inv in Eo as (Eo & _). exists []. rewrite app_nil_r. auto.
  Qed.

  Theorem distinct_requests_bounded reqs : Forall deleg_req reqs -> NoDup reqs ->
    (length reqs <= length (sn_meta snap))%nat.
  Proof.
    intros F ND.
    assert (exists keys, length keys = length reqs /\ NoDup keys /\ incl keys (map fst (sn_meta snap))
                         /\ forall k, In k keys -> exists name m, k = json_of name
                                /\ lookup k (sn_meta snap) = Some m /\ In (role_filename cs (m_version m) name) reqs)
      as (keys & Hl & NDk & Hincl & _).
    { induction F as [|p l (name & m & Hm & Ep) F IH].
      - exists []. repeat split; [constructor|intros k []|intros k []].
      - inversion ND as [|a b Hn ND']; subst a b.
        destruct (IH ND') as (keys & Hl & NDk & Hincl & Hk).
        exists (json_of name :: keys). split; [cbn; lia|]. split; [|split].
        + constructor; [|exact NDk]. intro Hin. destruct (Hk _ Hin) as (name' & m' & E & Hm' & Hin').
          apply json_of_inj in E. subst name'. rewrite Hm in Hm'. inversion Hm'; subst m'. subst p. contradiction.
        + intros k [<-|Hin]; [apply lookup_some_in_keys; rewrite Hm; discriminate|apply Hincl, Hin].
        + intros k [<-|Hin].
          * exists name, m. split; [reflexivity|]. split; [exact Hm|]. left. exact Ep.
          * destruct (Hk _ Hin) as (name' & m' & E & Hm' & Hin'). exists name', m'. split; [exact E|]. split; [exact Hm'|].
            right. exact Hin'. }
    pose proof (NoDup_incl_length NDk Hincl) as Hlen. rewrite map_length in Hlen. lia.
  Qed.
End Bound.

Lemma root_walk_term fx cfg srv orig : forall fuel cur w r w',
  update_limit fx orig (c_max_root_updates cfg) - r_version cur < N.of_nat fuel ->
  root_walk fx fuel cfg srv orig cur w = (r, w') -> no_oof r.
Proof.
  induction fuel as [|f IH]; intros cur w r w' Hf H; [lia|]. rewrite root_walk_step in H.
  destruct (r_version cur <? update_limit fx orig (c_max_root_updates cfg)) eqn:Hl; [|injection H as <- _; cbn; discriminate].
  destruct (next cfg srv cur) as [new| |c a] eqn:Hn.
  - apply next_hop, hop_version in Hn. eapply IH; [|exact H]. lia.
  - injection H as <- _. exact I.
  - injection H as <- _. apply next_fail in Hn. cbn [no_oof]. intros ->. cbn [In] in Hn. intuition discriminate.
Qed.

Lemma stop_code_no_oof cfg c : stop_code cfg c -> c <> E_OutOfFuel.
Proof. intros [H|(_ & [->| ->])]; [|discriminate..]. intros ->. cbn [In] in H. intuition discriminate. Qed.

Lemma load_root_no_oof cfg shipped srv now w r w' : c_max_root_updates cfg < N.of_nat (c_fuel cfg) ->
  load_root fixed cfg shipped srv now w = (r, w') -> no_oof r.
Proof.
  intros Hf H.
  apply load_root_inv in H as [(_ & c & -> & [->| ->])|(r0 & [x|c a] & w1 & _ & _ & Ew & H)]; try (cbn; discriminate).
  - destruct r as [|c a]; [exact I|exact (stop_code_no_oof _ _ (finish_root_err _ _ _ _ _ _ _ _ _ H))].
  - destruct H as [-> _]. refine (root_walk_term _ _ _ _ _ _ _ _ _ _ Ew).
    pose proof (update_limit_bound fixed (r_version r0) (c_max_root_updates cfg)). lia.
Qed.

Lemma anc_ok_top snap : anc_ok snap (top_ancestors fixed).
Proof.
  split; [|intros a Ha; right; exact Ha].
  cbn [top_ancestors fixed fx_reserved_names]. repeat constructor; cbn [In]; intuition discriminate.
Qed.

(* load_targets starts the path with the four top-level names, which are the 4 in the bound of load_delegs_term *)
Lemma load_targets_no_oof cfg r sn srv now w res w' : (length (sn_meta sn) < c_fuel cfg)%nat ->
  load_targets fixed cfg r sn srv now w = (res, w') -> no_oof res.
Proof.
  intros Hf H.
  apply load_targets_inv in H as [(_ & -> & _)|(m & _ & [t0|c a] & w3 & _ & _ & L & H)]; [cbn; discriminate| |].
  - apply attach_inv in H as [(_ & _ & ->)|(_ & rd & E & ->)].
    + destruct (validate t0); cbn; [exact I|discriminate].
    + apply load_delegs_term in E; [|apply anc_ok_top|cbn [top_ancestors fixed fx_reserved_names length]; lia].
      destruct rd as [rs|c a]; [destruct (validate (tg_set_roles t0 rs)); cbn; [exact I|discriminate]|exact E].
  - destruct H as [-> _]. exact (stop_code_no_oof _ _ (load_doc_err L)).
Qed.

Definition is_root_req (n : bytes) : Prop := exists v, n = root_json v.

Lemma load_root_log fx cfg shipped srv now w res w' :
  load_root fx cfg shipped srv now w = (res, w') ->
  exists roots, w_log w' = w_log w ++ roots /\ N.of_nat (length roots) <= c_max_root_updates cfg
                /\ Forall is_root_req roots.
Proof.
  intro H. apply load_root_inv in H as [(-> & _)|(r0 & rw & w1 & _ & _ & Ew & H)].
  { exists []. rewrite app_nil_r. repeat split; [cbn; lia|constructor]. }
  apply root_walk_requests in Ew as (names & L & Hn & Ha).
  pose proof (update_limit_bound fx (r_version r0) (c_max_root_updates cfg)) as Hb.
  exists names. split; [|split; [lia|exact Ha]].
  destruct rw as [r|c a]; [apply finish_root_inv in H as (-> & _); exact L|destruct H as [_ ->]; exact L].
Qed.

Lemma load_snapshot_log fx cfg r ts srv now w res w' :
  load_snapshot fx cfg r ts srv now w = (res, w') -> exists l, w_log w' = w_log w ++ l /\ (length l <= 1)%nat.
Proof.
  intro H. apply load_snapshot_inv in H as [(_ & _ & ->)|(m & _ & L & _)].
  - exists []. rewrite app_nil_r. auto.
  - eexists. split; [exact L|apply le_n].
Qed.

Lemma load_targets_log cfg r sn srv now w res w' :
  load_targets fixed cfg r sn srv now w = (res, w') ->
  exists l dreqs, w_log w' = w_log w ++ l ++ dreqs /\ (length l <= 1)%nat
                  /\ Forall (deleg_req sn (r_cs r)) dreqs.
Proof.
  intro H. apply load_targets_inv in H as [(_ & _ & ->)|(m & _ & r0 & w3 & L & _ & _ & H)].
  { exists [], []. rewrite app_nil_r. auto. }
  assert (logs_only (deleg_req sn (r_cs r)) w3 w') as (dreqs & L4 & F4).
  { destruct r0 as [t0|c a]; [|destruct H as [_ ->]; apply logs_only_refl].
    apply attach_inv in H as [(_ & -> & _)|(_ & rd & E & _)]; [apply logs_only_refl|].
    exact (load_delegs_log _ _ _ _ _ _ _ _ _ _ _ _ E). }
  eexists. exists dreqs. rewrite L4, L, <- app_assoc. split; [reflexivity|]. split; [apply le_n|exact F4].
Qed.
