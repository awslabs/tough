(* What a successful update cycle of the model with all repairs guarantees about every document it trusts
   (C01 sites, C02 chain, C04 freeze, C05 pins, C09 byte bounds), and, for every variant of the code, that
   without enforcement no cycle fails for reasons of time (C04). *)
From ToughV Require Import Model.Base Model.Sig Model.Deleg Model.Client.
From ToughV Require Import Proofs.SigP Proofs.ClientP.

Lemma fetch_ok srv name limit hash file :
  fetch srv name limit hash = FOk file ->
  lookup name srv = Some (Served file)
  /\ (exists n, f_len file = Some n /\ n <= limit)
  /\ (forall h, hash = Some h -> f_digest file = h).
Proof.
  unfold fetch. intro H.
  destruct (lookup name srv) as [[| |f]|] eqn:L; try discriminate.
  destruct (f_fail f =? 1) eqn:F1; [discriminate|]. destruct (f_fail f =? 2) eqn:F2; [discriminate|].
  destruct (f_len f) as [n|] eqn:Ln; [|discriminate].
  destruct (limit <? n) eqn:Lt; [discriminate|].
  assert (f = file /\ (forall h, hash = Some h -> f_digest f = h)) as [-> Hh].
  { destruct hash as [h|]; [|injection H as ->; split; [reflexivity|discriminate]].
    destruct (h =? f_digest f) eqn:E; [|discriminate]. injection H as ->. split; [reflexivity|].
    intros h' [= <-]. symmetry. apply N.eqb_eq, E. }
  split; [reflexivity|]. split; [|exact Hh]. exists n. split; [exact Ln|lia].
Qed.

(* root_verify is the specification of C01 applied to the role's entry *)
Lemma root_verify_spec r role sigs :
  root_verify r role sigs = true <->
  exists rk, find_role role (r_roles r) = Some rk
             /\ spec_accept (r_keys r) (rk_keyids rk) (rk_threshold rk) sigs = true.
Proof.
  unfold root_verify. destruct (find_role role (r_roles r)) as [rk|].
  - rewrite verify_distinct_spec. split; [intro H; exists rk; auto|intros (rk' & [= <-] & H); exact H].
  - split; [discriminate|intros (rk & E & _); discriminate].
Qed.

(* what a successful cycle has established. [r0] is the shipped root, [l] the roots the walk went through after it,
   [t0] targets.json as fetched; [s2], [s3] and [s4] are the datastores that steps 1, 2 and 3 left, to which the
   timestamp, the snapshot and the targets had to be acceptable *)
Set Implicit Arguments.
Record cycle_facts (c : cyc) (rp : repo) (r0 : root) (l : list root) (t0 : targets) (s2 s3 s4 : store) : Prop := {
  cf_shipped : cy_shipped c = CRoot r0;
  cf_shipped_verified : root_verify r0 0 (r_sigs r0) = true;
  cf_path : path (cy_cfg c) (cy_srv c) r0 l;
  cf_last : rp_root rp = last_root r0 l;
  cf_stopped : stopped (cy_cfg c) (cy_srv c) (rp_root rp);
  cf_limit : r_version (rp_root rp) < update_limit fixed (r_version r0) (c_max_root_updates (cy_cfg c));
  cf_root_fresh : c_enforce (cy_cfg c) = true -> (cy_now c <= r_expires (rp_root rp))%Z;
  cf_ts : ts_accepted (cy_cfg c) (rp_root rp) (cy_srv c) (cy_now c) s2 (rp_ts rp);
  cf_snap : snap_accepted (cy_cfg c) (rp_root rp) (rp_ts rp) (cy_srv c) (cy_now c) s3 (rp_snap rp);
  cf_tgt : tgt_accepted (cy_cfg c) (rp_root rp) (rp_snap rp) (cy_srv c) (cy_now c) s4 t0;
  cf_loaded : loaded_from t0 (rp_targets rp);
  cf_valid : validate (rp_targets rp) = true }.
Unset Implicit Arguments.

Lemma cycle_ok_facts c s rp w' : run_cycle fixed c s = (Ok rp, w') ->
  exists r0 l t0 s2 s3 s4, cycle_facts c rp r0 l t0 s2 s3 s4.
Proof.
  intro H. apply run_cycle_ok_inv in H as (r0 & w0 & w1 & w2 & w3 & Hs & V0 & Ew & Ef & Et & Es & Eg).
  apply root_walk_ok in Ew as (l & Hp & Hr & Hst & _ & Hlim & _).
  apply finish_root_ok in Ef as (_ & Fr & _).
  apply load_timestamp_ok in Et as [At _]. apply load_snapshot_ok in Es as [As _].
  apply load_targets_ok in Eg as (m & t0 & s1 & w3' & _ & Ag & _ & _ & K). apply attach_ok in K as [Lf Val].
  exists r0, l, t0, (w_store w1), (w_store w2), (w_store w3).
  exact (@Build_cycle_facts c rp r0 l t0 _ _ _ Hs V0 Hp Hr Hst Hlim (fun He => proj1 (Fr He)) At As Ag Lf Val).
Qed.

(* C04: with enforcement off nothing fails for reasons of time *)
Definition time_code (c : N) : bool := (c =? E_Expired) || (c =? E_TimeBack).

Lemma stop_code_no_time cfg c : c_enforce cfg = false -> stop_code cfg c -> time_code c = false.
Proof.
  intros He [H|[E _]]; [|congruence].
  destruct H as [<-|[<-|[<-|[<-|[<-|[<-|[<-|[<-|[]]]]]]]]]; reflexivity.
Qed.

Lemma walk_code_no_time c : walk_code c -> time_code c = false.
Proof. intros [<-|[<-|[<-|[<-|[<-|[<-|[]]]]]]]; reflexivity. Qed.

Lemma load_delegs_no_time fx cfg srv snap cs lim fuel dk rs anc w c a w' :
  load_delegs fx cfg srv snap cs lim fuel dk rs anc w = (Err c a, w') -> time_code c = false.
Proof.
  intro H.
  apply (load_delegs_sat fx cfg srv snap cs lim (fun _ _ => True) (fun c => time_code c = false)) in H as [_ T];
    [exact T|auto..| |reflexivity].
  (* the codes of the loops, one by one *)
  intros c0 [<-|[<-|[<-|[<-|[<-|[<-|[<-|[<-|[]]]]]]]]]; reflexivity.
Qed.

(* every step stops with a code of its table, and none of the tables has a time code once enforcement is off *)
Lemma cycle_unsafe_no_time fx c s code a w' :
  c_enforce (cy_cfg c) = false -> run_cycle fx c s = (Err code a, w') -> time_code code = false.
Proof.
  intro He. unfold run_cycle. apply (cycle_err (fun c => time_code c = false)).
  - intros w c0 a0 w1 E.
    apply load_root_inv in E as [(_ & c1 & [= -> _] & [->| ->])|(r0 & [r|cw aw] & wa & _ & _ & Ew & E)];
      [reflexivity|reflexivity| |].
    + exact (stop_code_no_time _ _ He (finish_root_err _ _ _ _ _ _ _ _ _ E)).
    + destruct E as [[= <- _] _]. exact (walk_code_no_time _ (root_walk_code _ _ _ _ _ _ _ _ _ _ Ew)).
  - intros r w c0 a0 w1 E. apply load_timestamp_inv in E as (_ & _ & Ld).
    exact (stop_code_no_time _ _ He (load_doc_err Ld)).
  - intros r ts w c0 a0 w1 E. apply load_snapshot_inv in E as [(_ & [= -> _] & _)|(m & _ & _ & _ & Ld)]; [reflexivity|].
    exact (stop_code_no_time _ _ He (load_doc_err Ld)).
  - intros r sn w c0 a0 w1 E.
    apply load_targets_inv in E as [(_ & [= -> _] & _)|(m & _ & [t0|c1 a1] & w3 & _ & _ & Ld & K)]; [reflexivity| |].
    + apply attach_inv in K as [(_ & _ & K)|(_ & [rs|c1 a1] & Ed & K)].
      * destruct (validate t0); [discriminate|injection K as -> _; reflexivity].
      * destruct (validate (tg_set_roles t0 rs)); [discriminate|injection K as -> _; reflexivity].
      * injection K as -> _. exact (load_delegs_no_time _ _ _ _ _ _ _ _ _ _ _ _ _ _ Ed).
    + destruct K as [[= -> _] _]. exact (stop_code_no_time _ _ He (load_doc_err Ld)).
Qed.
