(* Proofs about Model/RootCmd.v (property C20): the invariant [good] of `tuftool root` command
   histories, and self-verification after a plain `sign` in the repaired variant. *)
From ToughV Require Import Model.Base Model.Sig Model.RootCmd Proofs.BaseP Proofs.SigP.

Lemma list_eqb_refl {A} (e : A -> A -> bool) l : (forall x, e x x = true) -> list_eqb e l l = true.
Proof.
  intro H. induction l as [|x l IH]; cbn [list_eqb]; [reflexivity|]. rewrite H, IH. reflexivity.
Qed.

Lemma body_eqb_refl b : body_eqb b b = true.
Proof.
  assert (H1 : list_eqb pair_eqb (rb_keys b) (rb_keys b) = true).
  { apply list_eqb_refl. intros [a c]. unfold pair_eqb. cbn [fst snd]. rewrite !N.eqb_refl. reflexivity. }
  assert (H2 : list_eqb role_eqb (rb_roles b) (rb_roles b) = true).
  { apply list_eqb_refl. intros [r rk]. unfold role_eqb, rk_eqb. cbn [fst snd].
    rewrite !N.eqb_refl, list_eqb_refl; [reflexivity|apply N.eqb_refl]. }
  unfold body_eqb. rewrite !N.eqb_refl, H1, H2. reflexivity.
Qed.

Lemma remove_first_incl x l : incl (remove_first x l) l.
Proof.
  induction l as [|y l IH]; cbn [remove_first]; [apply incl_refl|].
  destruct (y =? x); [apply incl_tl, incl_refl|].
  intros z [->|Hz]; [left; reflexivity|right; exact (IH z Hz)].
Qed.

Lemma remove_first_NoDup x l : NoDup l -> NoDup (remove_first x l) /\ ~ In x (remove_first x l).
Proof.
  induction l as [|y l IH]; intro H; cbn [remove_first]; [split; [constructor|intros []]|].
  apply NoDup_cons_iff in H as [Hy Hl]. destruct (N.eqb_spec y x) as [->|Hne].
  - split; assumption.
  - destruct (IH Hl) as [H1 H2]. split.
    + constructor; [|exact H1]. intro Hin. apply Hy. exact (remove_first_incl _ _ _ Hin).
    + intros [Heq|Hin]; [exact (Hne Heq)|exact (H2 Hin)].
Qed.

Lemma id_of_key_In k t i : id_of_key k t = Some i -> In (i, k) t.
Proof.
  induction t as [|[i' k'] t IH]; cbn [id_of_key fst snd]; [discriminate|].
  destruct (N.eqb_spec k' k) as [->|_].
  - intro H. injection H as ->. left. reflexivity.
  - intro H. right. exact (IH H).
Qed.

Lemma find_role_In r l rk : find_role r l = Some rk -> In (r, rk) l.
Proof.
  induction l as [|[r' rk'] l IH]; cbn [find_role fst snd]; [discriminate|].
  destruct (N.eqb_spec r' r) as [->|_].
  - intro H. injection H as ->. left. reflexivity.
  - intro H. right. exact (IH H).
Qed.

Lemma upd_role_Forall (P : N * rolekeys -> Prop) r f d l :
  P (r, d) -> (forall rk, P (r, rk) -> P (r, f rk)) ->
  Forall P l -> Forall P (upd_role r f d l).
Proof.
  intros Hd Hf. induction l as [|[r' rk'] l IH]; intro H; cbn [upd_role fst snd].
  - constructor; [exact (Hf _ Hd)|constructor].
  - apply Forall_cons_iff in H as [He Hl]. destruct (N.eqb_spec r' r) as [->|_].
    + constructor; [exact (Hf _ He)|exact Hl].
    + constructor; [exact He|exact (IH Hl)].
Qed.

Lemma mod_role_Forall (P : N * rolekeys -> Prop) r f l :
  (forall rk, P (r, rk) -> P (r, f rk)) -> Forall P l -> Forall P (mod_role r f l).
Proof.
  intros Hf H. unfold mod_role. apply Forall_forall. intros e He.
  apply in_map_iff in He as ([r' rk'] & <- & Hin). rewrite Forall_forall in H. specialize (H _ Hin).
  cbn [fst snd]. destruct (N.eqb_spec r' r) as [->|_]; [exact (Hf _ H)|exact H].
Qed.

Lemma role_good_incl t1 t2 e : incl t1 t2 -> role_good t1 e -> role_good t2 e.
Proof.
  intros Hi (H1 & H2 & H3 & H4). repeat split; try assumption. exact (incl_tran H3 Hi).
Qed.

Lemma in_u64nz_dflt : in_u64nz dflt_threshold = true.
Proof. reflexivity. Qed.

Lemma role_good_mk tbl r rk : role_ok r = true -> in_u64nz (rr_thr rk) = true ->
  incl (rr_ids rk) tbl -> NoDup (rr_ids rk) -> role_good tbl (r, rk).
Proof. intros H1 H2 H3 H4. exact (conj H1 (conj H2 (conj H3 H4))). Qed.

Lemma role_good_empty tbl r n : role_ok r = true -> in_u64nz n = true ->
  role_good tbl (r, {| rr_ids := []; rr_thr := n |}).
Proof. intros H1 H2. apply role_good_mk; [exact H1|exact H2|apply incl_nil_l|constructor]. Qed.

Lemma set_thr_good tbl r n rk : in_u64nz n = true -> role_good tbl (r, rk) -> role_good tbl (r, set_thr n rk).
Proof. intros Hn (H1 & _ & H3 & H4). exact (role_good_mk _ _ (set_thr n rk) H1 Hn H3 H4). Qed.

Lemma add_id_good tbl r i rk : In i tbl -> role_good tbl (r, rk) -> role_good tbl (r, add_id i rk).
Proof.
  intros Hi (H1 & H2 & H3 & H4). unfold add_id. cbn [fst snd] in *. destruct (memN i (rr_ids rk)) eqn:E.
  - apply role_good_mk; assumption.
  - apply role_good_mk; cbn [rr_ids rr_thr]; try assumption.
    + intros x Hx. apply in_app_iff in Hx as [Hx|[<-|[]]]; [exact (H3 x Hx)|exact Hi].
    + apply NoDup_snoc; [exact H4|]. apply memN_false. exact E.
Qed.

(* removing a key id from a role, and possibly from the table the role is read against *)
Lemma del_id_good tbl tbl' r i rk : (forall x, In x tbl -> x <> i -> In x tbl') ->
  role_good tbl (r, rk) -> role_good tbl' (r, del_id i rk).
Proof.
  intros Ht (H1 & H2 & H3 & H4). cbn [fst snd] in *. destruct (remove_first_NoDup i _ H4) as [Hn Hx].
  apply role_good_mk; cbn [del_id rr_ids rr_thr]; try assumption.
  intros x Hin. apply Ht; [exact (H3 _ (remove_first_incl _ _ _ Hin))|]. intros ->. exact (Hx Hin).
Qed.

Section Kid.
  Variable kid : N -> N.

  Lemma parse_ok_keys b : parse_ok kid b = true -> keys_ok kid b.
  Proof.
    unfold parse_ok, keys_ok. intro H. apply andb_true_iff in H as [H _]. apply andb_true_iff in H as [H _].
    apply Forall_forall. intros e He. rewrite forallb_forall in H. apply N.eqb_eq. exact (H e He).
  Qed.

  Lemma body_good_parse_ok b : body_good kid b -> parse_ok kid b = true.
  Proof.
    intros (Hk & Hv & Hr). unfold parse_ok, keys_ok in *. rewrite Forall_forall in Hk, Hr.
    rewrite Hv, andb_true_r. apply andb_true_iff. split; apply forallb_forall; intros e He.
    - apply N.eqb_eq. exact (Hk e He).
    - destruct (Hr e He) as (A & B & _). rewrite A, B. reflexivity.
  Qed.

  Lemma load_Some st f : load kid st = Some f -> st = Some f /\ parse_ok kid (rf_body f) = true.
  Proof.
    unfold load. destruct st as [f0|]; [|discriminate]. destruct (parse_ok kid (rf_body f0)) eqn:E; [|discriminate].
    intro H. injection H as <-. split; [reflexivity|exact E].
  Qed.

  Lemma body_good_set_roles b rs : body_good kid b -> Forall (role_good (map fst (rb_keys b))) rs ->
    body_good kid (set_roles rs b).
  Proof. intros (Hk & Hv & _) Hrs. exact (conj Hk (conj Hv Hrs)). Qed.

  Lemma body_good_set_version b v : body_good kid b -> in_u64nz v = true -> body_good kid (set_version v b).
  Proof. intros (Hk & _ & Hrs) Hv. exact (conj Hk (conj Hv Hrs)). Qed.

  Lemma body_good_set_keys_roles b ks rs : body_good kid b -> Forall (fun e => fst e = kid (snd e)) ks ->
    Forall (role_good (map fst ks)) rs -> body_good kid (set_keys_roles ks rs b).
  Proof. intros (_ & Hv & _) Hk Hrs. exact (conj Hk (conj Hv Hrs)). Qed.

  Lemma add_roles_good tbl i roles : In i tbl -> forallb role_ok roles = true -> forall rs,
    Forall (role_good tbl) rs ->
    Forall (role_good tbl) (fold_left (fun rs r => upd_role r (add_id i) empty_role rs) roles rs).
  Proof.
    intros Hi. induction roles as [|r roles IH]; intros Hr rs H; cbn [fold_left]; [exact H|].
    cbn [forallb] in Hr. apply andb_true_iff in Hr as [Hr1 Hr2]. apply IH; [exact Hr2|].
    apply upd_role_Forall; [exact (role_good_empty _ _ _ Hr1 in_u64nz_dflt)| |exact H].
    intro rk. apply add_id_good, Hi.
  Qed.

  Lemma add_one_good roles b k b' : forallb role_ok roles = true ->
    body_good kid b -> add_one kid roles b k = Some b' -> body_good kid b'.
  Proof.
    intros Hr Hb. pose proof Hb as (Hk & _ & Hrs). unfold add_one.
    destruct (id_of_key k (rb_keys b)) as [i|] eqn:E.
    - intros [= <-]. apply body_good_set_keys_roles; [exact Hb|exact Hk|].
      apply add_roles_good; [|exact Hr|exact Hrs]. exact (in_map fst _ _ (id_of_key_In _ _ _ E)).
    - destruct (memN (kid k) (map fst (rb_keys b))); [discriminate|].
      intros [= <-]. apply body_good_set_keys_roles; [exact Hb| |].
      + apply Forall_app. split; [exact Hk|]. constructor; [reflexivity|constructor].
      + rewrite map_app. apply add_roles_good; [|exact Hr|].
        * apply in_app_iff. right. left. reflexivity.
        * eapply Forall_impl; [|exact Hrs]. intro e. apply role_good_incl, incl_appl, incl_refl.
  Qed.

  Lemma add_all_good roles ks : forallb role_ok roles = true -> forall b b',
    body_good kid b -> add_all kid roles b ks = Some b' -> body_good kid b'.
  Proof.
    intro Hr. induction ks as [|[k|] ks IH]; intros b b' Hb; cbn [add_all].
    - intros [= <-]. exact Hb.
    - destruct (add_one kid roles b k) as [b1|] eqn:E; [|discriminate].
      apply IH. exact (add_one_good _ _ _ _ Hr Hb E).
    - discriminate.
  Qed.

  Lemma edit_good c b b' : body_good kid b -> edit kid c b = Some b' -> body_good kid b'.
  Proof.
    intros Hb. pose proof Hb as (Hk & Hv & Hrs). destruct c; cbn [edit]; try discriminate.
    - (* add-key *)
      destruct (forallb role_ok roles) eqn:Er; [|discriminate]. apply add_all_good; assumption.
    - (* remove-key *)
      destruct role as [r|].
      + destruct (role_ok r); [|discriminate]. intros [= <-]. apply body_good_set_roles; [exact Hb|].
        apply mod_role_Forall; [|exact Hrs]. intro rk. apply del_id_good. intros x Hx _. exact Hx.
      + (* from the table and from every role *)
        intros [= <-]. apply body_good_set_keys_roles; [exact Hb|exact (incl_Forall (incl_filter _ _) Hk)|].
        apply Forall_map. eapply Forall_impl; [|exact Hrs]. intros [r rk]. apply del_id_good.
        intros x Hx Hne. apply in_map_iff in Hx as (e & <- & He). apply in_map, filter_In. split; [exact He|].
        apply negb_true_iff, N.eqb_neq, Hne.
    - (* set-threshold *)
      destruct (role_ok role && in_u64nz n) eqn:E; [|discriminate]. apply andb_true_iff in E as [E1 E2].
      intros [= <-]. apply body_good_set_roles; [exact Hb|].
      apply upd_role_Forall; [exact (role_good_empty _ _ _ E1 E2)| |exact Hrs].
      intro rk. apply set_thr_good, E2.
    - (* set-version *)
      destruct (in_u64nz n) eqn:E; [|discriminate]. intros [= <-]. exact (body_good_set_version _ _ Hb E).
    - (* bump-version *)
      destruct (rb_version b + 1 <=? u64_max) eqn:E; [|discriminate]. intros [= <-].
      apply body_good_set_version; [exact Hb|]. unfold in_u64nz. rewrite E, andb_true_r.
      apply N.leb_le, N.le_add_l.
    - (* expire: [body_good] does not look at the expiry date *)
      destruct time as [t|]; [|discriminate]. intros [= <-]. exact Hb.
  Qed.

  Lemma init_good v now : in_u64nz v = true -> body_good kid (init_body v now).
  Proof.
    intro Hv. split; [constructor|]. split; [exact Hv|]. cbn [init_body rb_roles].
    (* the four top-level roles, each without keys *)
    do 4 (apply Forall_cons; [apply role_good_empty; [reflexivity|exact in_u64nz_dflt]|]). apply Forall_nil.
  Qed.

  Definition mk_sig (b : body) (p : N * N) : rsig :=
    {| sg_keyid := fst p; sg_key := snd p; sg_body := b |}.

  (* collect and add_old go through a list and put an item at the end of the accumulator when its
     key id is not yet there: whatever such a step keeps holds of the result *)
  Lemma collect_inv (J : list (N * N) -> Prop) t ks :
    (forall acc p, In p t -> ~ In (fst p) (map fst acc) -> J acc -> J (acc ++ [p])) ->
    forall acc, J acc -> J (collect t acc ks).
  Proof.
    intro Hstep. induction ks as [|k ks IH]; intros acc Ha; cbn [collect]; [exact Ha|].
    destruct (id_of_key k t) as [i|] eqn:E; [|exact (IH _ Ha)].
    destruct (memN i (map fst acc)) eqn:M; [exact (IH _ Ha)|].
    apply IH, Hstep; [exact (id_of_key_In _ _ _ E)|apply memN_false, M|exact Ha].
  Qed.

  Lemma add_old_inv (J : list rsig -> Prop) old :
    (forall acc o, In o old -> ~ In (sg_keyid o) (map sg_keyid acc) -> J acc -> J (acc ++ [o])) ->
    forall acc, J acc -> J (add_old acc old).
  Proof.
    induction old as [|o old IH]; intros Hstep acc Ha; cbn [add_old]; [exact Ha|].
    specialize (IH (fun acc o' Ho' => Hstep acc o' (or_intror Ho'))).
    destruct (existsb (fun s => sg_keyid s =? sg_keyid o) acc) eqn:E; [exact (IH _ Ha)|].
    apply IH, Hstep; [left; reflexivity| |exact Ha].
    intros (s & Hs & Hin)%in_map_iff. apply not_true_iff_false in E. apply E.
    apply existsb_exists. exists s. split; [exact Hin|]. apply N.eqb_eq, Hs.
  Qed.

  Definition cross_none (cross : option state) : bool :=
    match cross with None => true | Some _ => false end.

  Definition signed_sigs (f lr : rfile) (lrk : rolekeys) (ks : list N) : list rsig :=
    add_old (map (mk_sig (rf_body f))
                 (filter (fun p => memN (fst p) (rr_ids lrk)) (collect (rb_keys (rf_body lr)) [] ks)))
            (rf_sigs f).

  Lemma sign_inv fx keys cross ignore st st' :
    sign kid fx keys cross ignore st = ROk st' ->
    exists f lr ks lrk rk,
      load kid st = Some f
      /\ match cross with None => Some f | Some c => load kid c end = Some lr
      /\ all_some keys = Some ks
      /\ find_role 0 (rb_roles (rf_body lr)) = Some lrk
      /\ find_role 0 (rb_roles (rf_body f)) = Some rk
      /\ st' = Some {| rf_body := rf_body f; rf_sigs := signed_sigs f lr lrk ks |}
      /\ (ignore = false ->
          ((if fx_own_root_sigs fx && cross_none cross
            then own_count (rr_ids rk) (signed_sigs f lr lrk ks)
            else N.of_nat (length (signed_sigs f lr lrk ks))) <? rr_thr rk) = false).
  Proof.
    unfold sign. destruct (load kid st) as [f|] eqn:E1; [|discriminate].
    destruct (match cross with None => Some f | Some c => load kid c end) as [lr|] eqn:E2; [|discriminate].
    destruct (all_some keys) as [ks|] eqn:E3; [|discriminate].
    destruct (collect (rb_keys (rf_body lr)) [] ks) as [|p found] eqn:E4; [discriminate|].
    destruct (find_role 0 (rb_roles (rf_body lr))) as [lrk|] eqn:E5; [|discriminate].
    destruct (negb ignore && unstable (rf_body f)) eqn:E6; [discriminate|].
    destruct (find_role 0 (rb_roles (rf_body f))) as [rk|] eqn:E7; [|discriminate].
    match goal with |- context [if negb ignore && ?c then _ else _] => destruct (negb ignore && c) eqn:E8 end;
      [discriminate|].
    intro H. injection H as <-. exists f, lr, ks, lrk, rk.
    unfold signed_sigs, mk_sig, cross_none. rewrite E4.
    repeat split; try reflexivity; try assumption.
    intro Hi. subst ignore. cbn [negb andb] in E8. exact E8.
  Qed.

  Lemma signed_sigs_good f lr lrk ks :
    keys_ok kid (rf_body lr) -> Forall (sig_good kid (rf_body f)) (rf_sigs f) ->
    Forall (sig_good kid (rf_body f)) (signed_sigs f lr lrk ks).
  Proof.
    intros Hk Hold. unfold signed_sigs. apply add_old_inv.
    - intros acc o Ho _ Ha. rewrite Forall_forall in Hold.
      apply Forall_app. split; [exact Ha|]. constructor; [exact (Hold o Ho)|constructor].
    - (* the new ones are made from pairs of lr's key table *)
      apply Forall_map, incl_Forall with (1 := incl_filter _ _), collect_inv; [|constructor].
      intros acc p Hp _ Ha. unfold keys_ok in Hk. rewrite Forall_forall in Hk.
      apply Forall_app. split; [exact Ha|]. constructor; [|constructor]. split; [reflexivity|exact (Hk p Hp)].
  Qed.

  Lemma signed_sigs_NoDup f lr lrk ks : NoDup (map sg_keyid (signed_sigs f lr lrk ks)).
  Proof.
    unfold signed_sigs. apply add_old_inv.
    { intros acc o _ Ho Ha. rewrite map_app. apply NoDup_snoc; assumption. }
    rewrite map_map. cbn [mk_sig sg_keyid]. apply NoDup_map_filter, collect_inv; [|constructor].
    intros acc p _ Hp Ha. rewrite map_app. apply NoDup_snoc; assumption.
  Qed.

  Lemma step_ok_inv fx c st st' : step kid fx c st = ROk st' ->
    (exists v now, in_u64nz v = true /\ st' = Some {| rf_body := init_body v now; rf_sigs := [] |})
    \/ (exists f b', load kid st = Some f /\ edit kid c (rf_body f) = Some b'
                     /\ st' = Some {| rf_body := b'; rf_sigs := [] |})
    \/ (exists keys cross ignore, c = CSign keys cross ignore /\ sign kid fx keys cross ignore st = ROk st').
  Proof.
    destruct c as [v now| | | | | | |keys cross ignore|]; cbn [step].
    { (* init *)
      destruct (in_u64nz _) eqn:E; [|discriminate]. intros [= <-]. left. do 2 eexists.
      split; [exact E|reflexivity]. }
    (* the six commands that edit the file *)
    1-6: destruct (load kid st) as [f|]; [|discriminate].
    1-6: destruct (edit kid _ (rf_body f)) as [b'|] eqn:E; [|discriminate].
    1-6: intros [= <-]; right; left; exists f, b'; repeat split; exact E.
    { (* sign *) intro H. right. right. do 3 eexists. split; [reflexivity|exact H]. }
    (* an invocation the argument parser refuses *)
    discriminate.
  Qed.

  Lemma step_good fx c st st' : good kid st -> step kid fx c st = ROk st' -> good kid st'.
  Proof.
    intros Hg H.
    apply step_ok_inv in H as [(v & now & Hv & ->)|[(f & b' & Hf & He & ->)|(keys & cross & ignore & -> & H)]].
    - split; [|constructor]. apply init_good, Hv.
    - apply load_Some in Hf as [-> _]. split; [|constructor]. exact (edit_good _ _ _ (proj1 Hg) He).
    - apply sign_inv in H as (f & lr & ks & lrk & rk & H1 & H2 & _ & _ & _ & -> & _).
      apply load_Some in H1 as [-> _]. destruct Hg as [Hb Hs].
      split; [exact Hb|]. cbn [rf_body rf_sigs]. apply signed_sigs_good; [|exact Hs].
      destruct cross as [c|].
      + apply load_Some in H2 as [_ H2]. apply parse_ok_keys. exact H2.
      + injection H2 as <-. apply Hb.
  Qed.

  Lemma exec_ok fx c st st' : step kid fx c st = ROk st' -> exec kid fx c st = st'.
  Proof. unfold exec. intros ->. reflexivity. Qed.

  Lemma exec_good fx c st : good kid st -> good kid (exec kid fx c st).
  Proof.
    intro Hg. unfold exec. destruct (step kid fx c st) eqn:E; [exact (step_good _ _ _ _ Hg E)|exact Hg].
  Qed.

  Lemma run_all_good fx cs : forall st, good kid st -> good kid (run_all kid fx cs st).
  Proof.
    unfold run_all. induction cs as [|c cs IH]; intros st Hg; cbn [fold_left]; [exact Hg|].
    apply IH. apply exec_good. exact Hg.
  Qed.

  (* self-verification after a plain sign (repaired variant): identifiers of different keys differ *)
  Hypothesis kid_inj : forall a b, kid a = kid b -> a = b.

  Lemma key_of_id_unique b i k : keys_ok kid b -> In i (map fst (rb_keys b)) -> i = kid k ->
    key_of_id i (rb_keys b) = Some k.
  Proof.
    unfold keys_ok. intros Hk Hin ->. induction (rb_keys b) as [|[i' k'] t IH]; [destruct Hin|].
    cbn [key_of_id fst snd]. apply Forall_cons_iff in Hk as [H1 H2]. cbn [fst snd] in H1.
    destruct (N.eqb_spec i' (kid k)) as [Heq|Hne].
    - f_equal. apply kid_inj. congruence.
    - apply IH; [exact H2|]. cbn [map fst In] in Hin. destruct Hin as [Hin|Hin]; [contradiction|exact Hin].
  Qed.

  Lemma sig_counts b g : keys_ok kid b -> sig_good kid b g -> In (sg_keyid g) (map fst (rb_keys b)) ->
    sig_valid (map fst (rb_keys b)) (sig_view kid b g) = true.
  Proof.
    intros Hk [Hfresh Hhonest] Hin. unfold sig_valid, sig_view. cbn [s_claim s_by s_ok].
    rewrite (key_of_id_unique _ _ (sg_key g) Hk Hin Hhonest), Hfresh, body_eqb_refl, <- Hhonest, !N.eqb_refl.
    apply memN_In in Hin. rewrite Hin. reflexivity.
  Qed.

  (* the signatures that [own_count] counts have distinct key ids of the root role, and each is valid *)
  Lemma own_sigs_verify f : good kid (Some f) -> NoDup (map sg_keyid (rf_sigs f)) ->
    forall rk, find_role 0 (rb_roles (rf_body f)) = Some rk ->
    (own_count (rr_ids rk) (rf_sigs f) <? rr_thr rk) = false -> root_verify kid f = true.
  Proof.
    intros [Hb Hs] Hnd rk Hrk Hcnt. unfold root_verify. rewrite Hrk.
    apply spec_accept_intro
      with (ws := map sg_keyid (filter (fun g => memN (sg_keyid g) (rr_ids rk)) (rf_sigs f))).
    - apply NoDup_map_filter, Hnd.
    - intros i Hi. apply in_map_iff in Hi as (g & <- & Hg). apply filter_In in Hg as [Hg Hm].
      apply memN_In in Hm. split; [exact Hm|].
      exists (sig_view kid (rf_body f) g). split; [apply in_map, Hg|]. split; [reflexivity|].
      destruct Hb as (Hk & _ & Hrs). rewrite Forall_forall in Hrs, Hs.
      destruct (Hrs _ (find_role_In _ _ _ Hrk)) as (_ & _ & Hincl & _).
      apply sig_counts; [exact Hk|exact (Hs g Hg)|exact (Hincl _ Hm)].
    - rewrite map_length. apply N.ltb_ge, Hcnt.
  Qed.

  Theorem sign_selfverifies_from_good keys st f' : good kid st ->
    step kid rc_fixed (CSign keys None false) st = ROk (Some f') -> root_verify kid f' = true.
  Proof.
    intros Hg H. pose proof (step_good _ _ _ _ Hg H) as Hg'. cbn [step] in H.
    apply sign_inv in H as (f & lr & ks & lrk & rk & H1 & H2 & _ & _ & H5 & H6 & H7).
    injection H6 as ->. specialize (H7 eq_refl). cbn [rc_fixed fx_own_root_sigs cross_none andb] in H7.
    apply (own_sigs_verify _ Hg') with (rk := rk).
    - apply signed_sigs_NoDup.
    - exact H5.
    - exact H7.
  Qed.
End Kid.

Lemma last_status_Some fx cs c b : last_status fx cs c = Some b ->
  exists f, step idk fx c (run_all idk fx cs None) = ROk (Some f) /\ root_verify idk f = b.
Proof.
  unfold last_status. destruct (step idk fx c (run_all idk fx cs None)) as [[f|]|]; try discriminate.
  intros [= <-]. exists f. split; reflexivity.
Qed.

(* F13: the pre-repair variant. Own root keys 1 and 2, threshold 2; the file is first cross-signed
   (ignoring the threshold) with key 3 of an older root, then signed with key 1 alone. *)
Lemma f13_original : last_status rc_original f13_history (CSign [Some 1] None false) = Some false.
Proof. vm_compute. reflexivity. Qed.
