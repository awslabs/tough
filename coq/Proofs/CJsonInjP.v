(* The canonical form determines the value: canonical texts are self-delimiting (no canonical text
   followed by a delimiter is a proper prefix of another), and reading two of them in lock-step the
   first byte forces the same constructor, so the two values agree up to the order of their members
   ([jnorm]). Used by C11 ("only of it") and by C12 (what is signed determines what is used; role
   tags cannot collide). nfc is the identity throughout (ASCII documents). *)
From ToughV Require Import Model.Base Model.Json Model.CJson Model.Schema Proofs.BaseP Proofs.CJsonP.

Notation cs := (canon_spec (fun s => s)).
Notation sitems := (spec_items (fun s => s)).
Notation smembers := (spec_members (fun s => s)).
Notation cm := (cmap (fun s => s)).

(* the first byte of a canonical text tells the kind of value; 7 is no first byte of any value, and a float (kind 8)
   has no canonical text, so the two never meet *)
Definition hd_kind (c : byte) : nat :=
  if c =? 110 then 0 else if c =? 116 then 1 else if c =? 102 then 2
  else if is_digit c || (c =? 45) then 3 else if c =? 34 then 4 else if c =? 91 then 5
  else if c =? 123 then 6 else 7.

Definition jkind (v : jv) : nat :=
  match v with
  | JNull => 0 | JBool true => 1 | JBool false => 2 | JInt _ => 3 | JFloat => 8
  | JStr _ => 4 | JArr _ => 5 | JObj _ => 6
  end.

Lemma hd_kind_digit c : is_digit c = true -> hd_kind c = 3%nat.
Proof.
  unfold hd_kind, is_digit. intro H.
  destruct (c =? 110) eqn:E1; [lia|]. destruct (c =? 116) eqn:E2; [lia|].
  destruct (c =? 102) eqn:E3; [lia|]. rewrite H. reflexivity.
Qed.

Lemma hd_kind_close : hd_kind 93 = 7%nat /\ hd_kind 125 = 7%nat /\ hd_kind 44 = 7%nat.
Proof. repeat split; reflexivity. Qed.

Lemma dec_z_eq z : dec_z z = (if (z <? 0)%Z then [45] else []) ++ dec (Z.abs_N z).
Proof. destruct z; reflexivity. Qed.

Lemma dec_head n : exists c t, dec n = c :: t /\ is_digit c = true.
Proof.
  pose proof (dec_digits n) as D. destruct (dec n) as [|c t] eqn:E; [destruct (dec_nonempty n E)|].
  exists c, t. split; [reflexivity|exact (Forall_inv D)].
Qed.

Lemma dec_z_head z : exists c t, dec_z z = c :: t /\ hd_kind c = 3%nat.
Proof.
  rewrite dec_z_eq. destruct (z <? 0)%Z; [exists 45, (dec (Z.abs_N z)); split; reflexivity|].
  destruct (dec_head (Z.abs_N z)) as (c & t & E & D). exists c, t. split; [exact E|apply hd_kind_digit, D].
Qed.

Lemma cs_head v b : cs v = Some b -> exists c t, b = c :: t /\ hd_kind c = jkind v.
Proof.
  destruct v as [| [|] | z | | s | l | m]; intro H.
  - injection H as <-. eexists _, _. split; reflexivity.
  - injection H as <-. eexists _, _. split; reflexivity.
  - injection H as <-. eexists _, _. split; reflexivity.
  - injection H as <-. exact (dec_z_head z).
  - discriminate.
  - injection H as <-. eexists _, _. split; reflexivity.
  - apply canon_spec_arr_inv in H as (body & _ & ->). eexists _, _. split; reflexivity.
  - apply canon_spec_obj_inv in H as (es & _ & ->). eexists _, _. split; reflexivity.
Qed.

Lemma cs_same_kind v1 v2 b1 b2 r1 r2 :
  cs v1 = Some b1 -> cs v2 = Some b2 -> b1 ++ r1 = b2 ++ r2 -> jkind v1 = jkind v2.
Proof.
  intros H1 H2 E. destruct (cs_head _ _ H1) as (c1 & t1 & -> & <-).
  destruct (cs_head _ _ H2) as (c2 & t2 & -> & <-). injection E as -> _. reflexivity.
Qed.

(* what may follow a value inside a canonical text *)
Definition delim (r : bytes) : Prop :=
  match r with [] => True | c :: _ => c = 44 \/ c = 93 \/ c = 125 end.

Lemma delim_nodigit r : delim r -> nodigit_head r.
Proof. destruct r as [|c r]; [trivial|]. cbn. unfold is_digit. intros [H|[H|H]]; subst; reflexivity. Qed.

Lemma dec_z_prefix z1 z2 r1 r2 :
  dec_z z1 ++ r1 = dec_z z2 ++ r2 -> nodigit_head r1 -> nodigit_head r2 -> z1 = z2 /\ r1 = r2.
Proof.
  intros E N1 N2. rewrite !dec_z_eq, <- !app_assoc in E.
  (* a digit is not a minus sign, so the signs agree *)
  assert (S : (z1 <? 0)%Z = (z2 <? 0)%Z).
  { destruct (dec_head (Z.abs_N z1)) as (c1 & t1 & D1 & K1), (dec_head (Z.abs_N z2)) as (c2 & t2 & D2 & K2).
    rewrite D1, D2 in E.
    destruct (z1 <? 0)%Z, (z2 <? 0)%Z; try reflexivity; injection E as E _; subst; discriminate. }
  rewrite S in E. apply app_inv_head in E.
  destruct (digits_prefix _ _ _ _ (dec_digits _) (dec_digits _) E N1 N2) as [D ->].
  apply dec_inj in D. split; [lia|reflexivity].
Qed.

(* strings: the closing quote is the first unescaped one *)
Lemma esc_prefix s1 : forall s2 r1 r2,
  esc s1 ++ 34 :: r1 = esc s2 ++ 34 :: r2 -> s1 = s2 /\ r1 = r2.
Proof.
  induction s1 as [|c1 s1 IH]; intros [|c2 s2] r1 r2 E; cbn [esc app] in E.
  - injection E as ->. split; reflexivity.
  - exfalso. unfold esc_byte in E. destruct ((c2 =? 34) || (c2 =? 92)) eqn:X; cbn [app] in E.
    + discriminate E.
    + injection E as <- _. discriminate X.
  - exfalso. unfold esc_byte in E. destruct ((c1 =? 34) || (c1 =? 92)) eqn:X; cbn [app] in E.
    + discriminate E.
    + injection E as -> _. discriminate X.
  - unfold esc_byte in E.
    destruct ((c1 =? 34) || (c1 =? 92)) eqn:X1, ((c2 =? 34) || (c2 =? 92)) eqn:X2;
      cbn [app] in E; rewrite <- ?app_assoc in E; cbn [app] in E.
    + injection E as -> E. destruct (IH _ _ _ E) as [-> ->]. split; reflexivity.
    + exfalso. injection E as <- _. rewrite orb_true_r in X2. discriminate.
    + exfalso. injection E as -> _. rewrite orb_true_r in X1. discriminate.
    + injection E as -> E. destruct (IH _ _ _ E) as [-> ->]. split; reflexivity.
Qed.

Lemma quote_prefix s1 s2 r1 r2 : quote s1 ++ r1 = quote s2 ++ r2 -> s1 = s2 /\ r1 = r2.
Proof.
  unfold quote. cbn [app]. rewrite <- !app_assoc. cbn [app]. intro E. injection E as E.
  exact (esc_prefix _ _ _ _ E).
Qed.

Lemma quote_inj s1 s2 : quote s1 = quote s2 -> s1 = s2.
Proof.
  intro E. destruct (quote_prefix s1 s2 [] []) as [H _]; [rewrite !app_nil_r; exact E|exact H].
Qed.

Lemma sort_members_cm m : sort_members (cm m) = cm (sort_members m).
Proof. exact (sort_members_map (fun _ x => cs x) m). Qed.

Lemma smembers_sorted_view m es : smembers m = Some es -> cm (sort_members m) = map some_snd (sort_members es).
Proof.
  intro H. apply spec_members_view in H. rewrite <- sort_members_cm, H.
  exact (sort_members_map (fun _ b => Some b) es).
Qed.

Lemma jnorm_obj m : jnorm (JObj m) = JObj (map (fun kv => (fst kv, jnorm (snd kv))) (sort_members m)).
Proof. cbn [jnorm]. f_equal. exact (sort_members_map (fun _ x => jnorm x) m). Qed.

(* A value is determined by its canonical text, wherever the text stands (before a delimiter or at the end) *)
Definition det (v : jv) : Prop := forall b v2 b2 r1 r2,
  cs v = Some b -> cs v2 = Some b2 -> b ++ r1 = b2 ++ r2 -> delim r1 -> delim r2 ->
  b = b2 /\ r1 = r2 /\ jnorm v = jnorm v2.

Lemma sitems_tail_delim t rest r : sitems false t = Some rest -> delim (rest ++ 93 :: r).
Proof.
  destruct t as [|x t]; intro H.
  - injection H as <-. cbn. auto.
  - apply spec_items_cons_inv in H as (b & r' & _ & _ & ->). cbn. auto.
Qed.

Lemma sitems_head first x l body : sitems first (x :: l) = Some body -> exists c t, body = c :: t /\ c <> 93.
Proof.
  intro H. apply spec_items_cons_inv in H as (b & r & C & _ & ->).
  destruct first; [|exists 44, (b ++ r); split; [reflexivity|discriminate]].
  destruct (cs_head _ _ C) as (c & t & -> & K). exists c, (t ++ r). split; [reflexivity|].
  intros ->. rewrite (proj1 hd_kind_close) in K. destruct x as [|[|]| | | | |]; discriminate.
Qed.

Lemma items_det l1 : Forall det l1 -> forall first l2 b1 b2 r1 r2,
  sitems first l1 = Some b1 -> sitems first l2 = Some b2 -> b1 ++ 93 :: r1 = b2 ++ 93 :: r2 ->
  b1 = b2 /\ r1 = r2 /\ map jnorm l1 = map jnorm l2.
Proof.
  induction 1 as [|x l1 Hx _ IH]; intros first [|y l2] b1 b2 r1 r2 S1 S2 E.
  - injection S1 as <-. injection S2 as <-. injection E as ->. auto.
  - exfalso. injection S1 as <-. destruct (sitems_head _ _ _ _ S2) as (c & t & -> & N).
    injection E as E _. congruence.
  - exfalso. injection S2 as <-. destruct (sitems_head _ _ _ _ S1) as (c & t & -> & N).
    injection E as E _. congruence.
  - apply spec_items_cons_inv in S1 as (bx & t1 & Cx & T1 & ->).
    apply spec_items_cons_inv in S2 as (by_ & t2 & Cy & T2 & ->).
    rewrite <- !app_assoc in E. apply app_inv_head in E.
    destruct (Hx _ _ _ _ _ Cx Cy E (sitems_tail_delim _ _ _ T1) (sitems_tail_delim _ _ _ T2)) as (<- & Et & Jx).
    destruct (IH false l2 t1 t2 r1 r2 T1 T2 Et) as (<- & <- & Jl). cbn [map]. rewrite Jx, Jl. auto.
Qed.

Lemma pmembers_tail_delim S r : delim (print_spec_members false S ++ 125 :: r).
Proof. destruct S as [|[k v] S]; cbn; auto. Qed.

(* two tables of members, given with the tables of their entries, printed *)
Lemma members_det A : Forall (fun kv => det (snd kv)) A -> forall SA B SB first r1 r2,
  cm A = map some_snd SA -> cm B = map some_snd SB ->
  print_spec_members first SA ++ 125 :: r1 = print_spec_members first SB ++ 125 :: r2 ->
  SA = SB /\ r1 = r2
  /\ map (fun kv => (fst kv, jnorm (snd kv))) A = map (fun kv => (fst kv, jnorm (snd kv))) B.
Proof.
  (* by VA and VB a table is empty exactly when the table of its entries is: four cases are left *)
  induction 1 as [|[k1 x1] A Hx _ IH]; intros [|[k1' v1] SA] [|[k2 x2] B] [|[k2' v2] SB] first r1 r2 VA VB E;
    try discriminate VA; try discriminate VB; cbn [print_spec_members] in E.
  - (* A and B empty *) injection E as ->. auto.
  - (* A empty, B not: a closing brace against a comma or a quote *)
    exfalso. unfold quote in E. destruct first; discriminate E.
  - (* B empty, A not *) exfalso. unfold quote in E. destruct first; discriminate E.
  - injection VA as <- Cx VA. injection VB as <- Cy VB.
    rewrite <- !app_assoc in E. apply app_inv_head, quote_prefix in E as [<- E]. injection E as E.
    destruct (Hx _ _ _ _ _ Cx Cy E (pmembers_tail_delim _ _) (pmembers_tail_delim _ _)) as (<- & Et & Jx).
    destruct (IH _ _ _ false r1 r2 VA VB Et) as (<- & <- & JA). cbn [map fst snd] in *. rewrite Jx, JA. auto.
Qed.

Theorem cs_det v : det v.
Proof.
  induction v as [| bb | z | | s | l IHl | m IHm] using jv_ind2; intros b v2 b2 r1 r2 Hb H2 E D1 D2;
    pose proof (cs_same_kind _ _ _ _ _ _ Hb H2 E) as K.
  - destruct v2 as [| [|] | | | | |]; try discriminate K. injection Hb as <-. injection H2 as <-.
    apply app_inv_head in E. auto.
  - destruct bb, v2 as [| [|] | | | | |]; try discriminate K; injection Hb as <-; injection H2 as <-;
      apply app_inv_head in E; auto.
  - destruct v2 as [| [|] | z2 | | | |]; try discriminate K. injection Hb as <-. injection H2 as <-.
    destruct (dec_z_prefix _ _ _ _ E (delim_nodigit _ D1) (delim_nodigit _ D2)) as [-> ->]. auto.
  - discriminate Hb.
  - destruct v2 as [| [|] | | | s2 | |]; try discriminate K. injection Hb as <-. injection H2 as <-.
    apply quote_prefix in E as [-> ->]. auto.
  - destruct v2 as [| [|] | | | | l2 |]; try discriminate K.
    apply canon_spec_arr_inv in Hb as (body1 & S1 & ->). apply canon_spec_arr_inv in H2 as (body2 & S2 & ->).
    cbn [app] in E. rewrite <- !app_assoc in E. injection E as E.
    destruct (items_det l IHl true l2 _ _ r1 r2 S1 S2 E) as (-> & -> & J). cbn [jnorm]. rewrite J. auto.
  - destruct v2 as [| [|] | | | | | m2]; try discriminate K.
    apply canon_spec_obj_inv in Hb as (es1 & S1 & ->). apply canon_spec_obj_inv in H2 as (es2 & S2 & ->).
    cbn [app] in E. rewrite <- !app_assoc in E. injection E as E.
    destruct (members_det _ (Forall_sort_members _ _ IHm) _ _ _ true r1 r2
                (smembers_sorted_view _ _ S1) (smembers_sorted_view _ _ S2) E) as (-> & -> & J).
    rewrite !jnorm_obj, J. auto.
Qed.

Corollary cs_injective v1 v2 b : cs v1 = Some b -> cs v2 = Some b -> jnorm v1 = jnorm v2.
Proof.
  intros H1 H2. apply (cs_det v1 b v2 b [] [] H1 H2 eq_refl I I).
Qed.

Theorem cs_obj_entries_inj m1 m2 es1 es2 b :
  cs (JObj m1) = Some b -> cs (JObj m2) = Some b ->
  smembers m1 = Some es1 -> smembers m2 = Some es2 -> sort_members es1 = sort_members es2.
Proof.
  intros H1 H2 S1 S2. rewrite spec_obj, S1 in H1. rewrite spec_obj, S2, <- H1 in H2.
  cbn [app] in H2. injection H2 as E. symmetry in E.
  assert (F : Forall (fun kv => det (snd kv)) (sort_members m1)) by (apply Forall_forall; intros kv _; apply cs_det).
  apply (members_det _ F _ _ _ true [] [] (smembers_sorted_view _ _ S1) (smembers_sorted_view _ _ S2) E).
Qed.

Theorem cs_obj_head_member k v1 v2 rest1 rest2 b :
  ~ In k (map fst rest1) -> ~ In k (map fst rest2) ->
  cs (JObj ((k, v1) :: rest1)) = Some b -> cs (JObj ((k, v2) :: rest2)) = Some b ->
  cs v1 = cs v2.
Proof.
  intros N1 N2 H1 H2.
  destruct (canon_spec_obj_inv _ _ _ H1) as (es1 & S1 & _). destruct (canon_spec_obj_inv _ _ _ H2) as (es2 & S2 & _).
  pose proof (cs_obj_entries_inj _ _ _ _ _ H1 H2 S1 S2) as E. apply (f_equal (map some_snd)) in E.
  rewrite <- (smembers_sorted_view _ _ S1), <- (smembers_sorted_view _ _ S2), <- !sort_members_cm in E.
  apply (f_equal (find_assoc k)) in E.
  change (cm ((k, ?v) :: ?r)) with ((k, cs v) :: cm r) in E.
  rewrite !find_assoc_sort_head in E by (rewrite cmap_keys; assumption).
  injection E as E. exact E.
Qed.

(* A value that has a canonical form keeps it when its members are sorted, so [jnorm] loses nothing.
   (Only then: sorting may drop a float under a name given twice.) *)
Lemma cs_sorted_obj m : cs (JObj m) <> None -> cs (JObj (sort_members m)) = cs (JObj m).
Proof.
  destruct (cs (JObj m)) as [b|] eqn:H; [intros _|contradiction].
  apply canon_spec_obj_inv in H as (es & S & ->).
  apply smembers_sorted_view, spec_members_view in S. rewrite spec_obj, S, sort_members_idem. reflexivity.
Qed.

Theorem jnorm_cs v : cs v <> None -> cs (jnorm v) = cs v.
Proof.
  induction v as [| bb | z | | s | l IHl | m IHm] using jv_ind2; intro N; try reflexivity.
  - symmetry. apply canon_spec_arr_ext, Forall2_map_r.
    rewrite Forall_forall in *. intros x Hx. symmetry. apply (IHl x Hx).
    intro Cx. exact (N (canon_spec_arr_none _ l x Hx Cx)).
  - rewrite jnorm_obj, <- (cs_sorted_obj m N). symmetry. apply canon_spec_obj_ext, Forall2_map_r.
    apply Forall_sort_members. rewrite Forall_forall in *. intros [k x] Hkx. split; [reflexivity|].
    symmetry. apply (IHm _ Hkx). intro Cx. exact (N (canon_spec_obj_none _ m k x Hkx Cx)).
Qed.

Theorem canonical_form_determines_value v1 v2 b : cs v1 = Some b ->
  (cs v2 = Some b <-> (jnorm v2 = jnorm v1 /\ cs v2 <> None)).
Proof.
  intro H1. split.
  - intro H2. split; [exact (cs_injective v2 v1 b H2 H1)|rewrite H2; discriminate].
  - intros [E N]. rewrite <- (jnorm_cs v2 N), E, jnorm_cs, H1; [reflexivity|]. rewrite H1. discriminate.
Qed.
