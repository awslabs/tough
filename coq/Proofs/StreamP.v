(* The stream adapters of Model/Stream.v (C06): what the consumer has received is a prefix of the signed content,
   never longer than the limit, and all of it when the stream ends well. *)
From ToughV Require Import Model.Base Model.Stream.
From Coq Require Import ZifyBool.

Definition is_chunk (i : item) : Prop := match i with Chunk _ => True | _ => False end.

Lemma chunk_bytes_app a b : chunk_bytes (a ++ b) = chunk_bytes a ++ chunk_bytes b.
Proof. unfold chunk_bytes. apply flat_map_app. Qed.

Lemma chunk_bytes_cons it r :
  chunk_bytes (it :: r) = match it with Chunk b => b | _ => [] end ++ chunk_bytes r.
Proof. reflexivity. Qed.

(* once over the limit, everything is an error *)
Lemma msa_over max : forall t sz, max < sz -> sz <= u64max' -> chunk_bytes (max_size_adapter max sz t) = [].
Proof.
  induction t as [|x t IHt]; intros sz Hsz Hu; [reflexivity|]. cbn [max_size_adapter]. rewrite chunk_bytes_cons.
  assert (X : (max <? match x with Chunk b0 => sat_add sz (N.of_nat (length b0)) | _ => sz end) = true).
  { destruct x; unfold sat_add in *; lia. }
  rewrite X. cbn [app]. apply IHt; destruct x; unfold sat_add in *; lia.
Qed.

Lemma msa_total max : max < u64max' -> forall s size, size <= max ->
  size + N.of_nat (length (chunk_bytes (max_size_adapter max size s))) <= max.
Proof.
  intros Hm. induction s as [|it r IH]; intros size Hs; cbn [max_size_adapter]; [cbn; lia|].
  rewrite chunk_bytes_cons.
  set (size' := match it with Chunk b => sat_add size (N.of_nat (length b)) | _ => size end).
  destruct (max <? size') eqn:E.
  - rewrite msa_over by (subst size'; destruct it; unfold sat_add in *; lia). cbn [app length]. lia.
  - specialize (IH size'). rewrite app_length.
    subst size'. destruct it; unfold sat_add in *; cbn [length] in *; lia.
Qed.

Theorem limiter_bound max s : max < u64max' ->
  N.of_nat (length (chunk_bytes (max_size_adapter max 0 s))) <= max.
Proof. intro H. pose proof (msa_total max H s 0). lia. Qed.

Lemma consume_prefix s : (length (fst (consume s)) <= length (chunk_bytes s))%nat.
Proof.
  induction s as [|it r IH]; [cbn; lia|]. rewrite chunk_bytes_cons. cbn [consume].
  destruct it as [b| | |]; try (cbn; lia).
  destruct (consume r) as [d ok]. cbn [fst] in *. rewrite !app_length. lia.
Qed.

(* never more than the limit reaches the caller, whatever the stream does and wherever the caller stops
   (every finite prefix of an endless stream included); items without bytes may follow the limited stream *)
Lemma consume_limited max s t : max < u64max' -> chunk_bytes t = [] ->
  N.of_nat (length (fst (consume (max_size_adapter max 0 s ++ t)))) <= max.
Proof.
  intros Hm Ht. pose proof (consume_prefix (max_size_adapter max 0 s ++ t)) as P.
  rewrite chunk_bytes_app, Ht, app_nil_r in P. pose proof (limiter_bound max s Hm). lia.
Qed.

Lemma consume_ok s d : consume s = (d, true) -> d = chunk_bytes s /\ Forall is_chunk s.
Proof.
  revert d; induction s as [|it r IH]; intros d H; cbn [consume] in H.
  - injection H as <-. split; [reflexivity|constructor].
  - destruct it as [b| | |]; try discriminate.
    destruct (consume r) as [d' ok]. injection H as <- ->.
    destruct (IH d' eq_refl) as [-> F]. split; [reflexivity|constructor; [exact I|exact F]].
Qed.

Lemma consume_app_ok a b : Forall is_chunk a -> consume (a ++ b) = (chunk_bytes a ++ fst (consume b), snd (consume b)).
Proof.
  induction 1 as [|it r Hi Hr IH]; [cbn [app chunk_bytes flat_map]; destruct (consume b); reflexivity|].
  destruct it as [x| | |]; try contradiction. cbn [app consume]. rewrite IH. rewrite chunk_bytes_cons, app_assoc. reflexivity.
Qed.

Lemma consume_all_chunks s : Forall is_chunk s -> consume s = (chunk_bytes s, true).
Proof.
  intro F. rewrite <- (app_nil_r s) at 1. rewrite (consume_app_ok s [] F). cbn [consume fst snd].
  rewrite app_nil_r. reflexivity.
Qed.

Lemma msa_fits max : forall s size, Forall is_chunk s ->
  size + N.of_nat (length (chunk_bytes s)) <= max -> max < u64max' -> max_size_adapter max size s = s.
Proof.
  induction s as [|it r IH]; intros size F Hs Hm; [reflexivity|]. apply Forall_cons_iff in F as [Hi Hr].
  destruct it as [b| | |]; try contradiction. cbn [max_size_adapter]. rewrite chunk_bytes_cons, app_length in Hs.
  assert (E : (max <? sat_add size (N.of_nat (length b))) = false) by (unfold sat_add in *; lia).
  rewrite E. f_equal. apply IH; auto. unfold sat_add in *. lia.
Qed.

Lemma msa_no_error max : forall s size, Forall is_chunk (max_size_adapter max size s) ->
  max_size_adapter max size s = s.
Proof.
  induction s as [|it r IH]; intros size F; [reflexivity|]. cbn [max_size_adapter] in *.
  apply Forall_cons_iff in F as [Hi Hr].
  destruct (max <? match it with Chunk b => sat_add size (N.of_nat (length b)) | _ => size end); [contradiction|].
  f_equal. apply IH, Hr.
Qed.

Section Digest.
  Variable H : bytes -> N.

  (* C06: if the stream a caller consumes ends without error, what it received hashes to the signed
     digest and is no longer than the signed length *)
  Theorem fetch_sha256_sound len dig s d : len < u64max' ->
    consume (fetch_sha256 H len dig s) = (d, true) ->
    H d = dig /\ N.of_nat (length d) <= len /\ d = chunk_bytes s /\ Forall is_chunk s.
  Proof.
    intros Hl Hc. unfold fetch_sha256, digest_adapter in Hc.
    apply consume_ok in Hc as [-> F]. apply Forall_app in F as [F1 F2].
    destruct (H (chunk_bytes (max_size_adapter len 0 s)) =? dig) eqn:E.
    - rewrite app_nil_r. apply N.eqb_eq in E. split; [exact E|]. split; [apply limiter_bound, Hl|].
      pose proof (msa_no_error _ _ _ F1) as Eq. rewrite Eq in F1. rewrite Eq. split; [reflexivity|exact F1].
    - apply Forall_inv in F2. contradiction.
  Qed.

  (* completeness: the signed content, in any chunking, is delivered unchanged *)
  Theorem fetch_sha256_complete len dig s : len < u64max' ->
    Forall is_chunk s -> N.of_nat (length (chunk_bytes s)) <= len -> H (chunk_bytes s) = dig ->
    consume (fetch_sha256 H len dig s) = (chunk_bytes s, true).
  Proof.
    intros Hl F Hn Hd. unfold fetch_sha256, digest_adapter.
    rewrite (msa_fits len s 0 F) by lia. rewrite Hd, N.eqb_refl, app_nil_r. apply consume_all_chunks, F.
  Qed.
End Digest.

(* metadata, fetched without a digest *)
Theorem fetch_max_size_never_more len s : len < u64max' ->
  N.of_nat (length (fst (consume (fetch_max_size len s)))) <= len.
Proof.
  intro Hl. unfold fetch_max_size. rewrite <- (app_nil_r (max_size_adapter len 0 s)).
  apply consume_limited; [exact Hl|reflexivity].
Qed.

Example stream_example :
  consume (fetch_sha256 (fun b => N.of_nat (length b)) 5 4 [Chunk [1; 2]; Chunk []; Chunk [3; 4]]) = ([1; 2; 3; 4], true)
  /\ consume (fetch_sha256 (fun b => N.of_nat (length b)) 3 4 [Chunk [1; 2]; Chunk [3; 4]; Chunk [5]]) = ([1; 2], false).
Proof. vm_compute. split; reflexivity. Qed.
