(* C19: a client that reads the cached copy of a repository - the files the source serves under the
   names the cache writes, and nothing else - loads the very repository the caching client loaded.
   Model with all repairs ([fixed]). The second client starts from an empty datastore and is not
   interrupted; the first ran from an arbitrary datastore, possibly with a fault scheduled that did not
   strike. *)
From ToughV Require Import Model.Base Model.Pct Model.Glob Model.Deleg Model.Client Model.Cache.
From ToughV Require Import Proofs.BaseP Proofs.ClientP Proofs.RollbackP Proofs.DelegLoadP
     Proofs.LivenessP Proofs.DelegBoundP Proofs.SrvExtP.

Lemma lookup_cache_srv names n : forall srv,
  lookup n (cache_srv srv names) = if mem_bytes n names then lookup n srv else None.
Proof.
  induction srv as [|[k v] srv IH].
  { cbn. destruct (mem_bytes n names); reflexivity. }
  unfold cache_srv in *. cbn [filter fst].
  destruct (mem_bytes k names) eqn:Mk; cbn [lookup]; destruct (bytes_eqb n k) eqn:E; try exact IH.
  - apply bytes_eqb_eq in E. subst k. rewrite Mk. reflexivity.
  - apply bytes_eqb_eq in E. subst k. rewrite IH, Mk. reflexivity.
Qed.

Lemma fetch_cache_srv srv names n lim h :
  fetch (cache_srv srv names) n lim h = if mem_bytes n names then fetch srv n lim h else FErr 0.
Proof. unfold fetch. rewrite lookup_cache_srv. destruct (mem_bytes n names); reflexivity. Qed.

Lemma cached_same_answer srv names n : In n names -> same_answer srv (cache_srv srv names) n.
Proof. intros Hin lim h. rewrite fetch_cache_srv. apply mem_bytes_In in Hin. rewrite Hin. reflexivity. Qed.

Definition alike_or_absent (srv srv' : server) (n : bytes) : Prop :=
  same_answer srv srv' n \/ forall lim h, fetch srv' n lim h = FErr 0.

Lemma cached_or_absent srv names n : alike_or_absent srv (cache_srv srv names) n.
Proof.
  destruct (mem_bytes n names) eqn:M.
  - left. apply cached_same_answer, mem_bytes_In, M.
  - right. intros lim h. rewrite fetch_cache_srv, M. reflexivity.
Qed.

Lemma role_names_eq t : role_names t = if tg_has_deleg t then roles_names (tg_roles t) else [].
Proof.
  destruct t as [v e en hd dk roles s]. cbn [role_names tg_has_deleg tg_roles]. destruct hd; [|reflexivity].
  induction roles as [|[h c] rest IH]; [reflexivity|]. cbn [roles_names]. rewrite <- IH. reflexivity.
Qed.

Lemma role_names_set_roles t rs : tg_has_deleg t = true -> role_names (tg_set_roles t rs) = roles_names rs.
Proof. intro H. rewrite role_names_eq, tg_set_roles_has_deleg, H, tg_set_roles_roles. reflexivity. Qed.

Lemma roles_names_heads rs : forall h, In h (map fst rs) -> In (dh_name h) (roles_names rs).
Proof.
  induction rs as [|[h0 c] rest IH]; intros h Hin; [destruct Hin|]. cbn [map fst] in Hin. cbn [roles_names].
  destruct Hin as [->|Hin]; [left; reflexivity|]. right. apply in_or_app. right. apply IH, Hin.
Qed.

(* delegated roles: every request of a successful load is for the file of a role that ended up in the loaded
   tree, under the name the role's snapshot entry determines *)
Section Requests.
  Variables (cfg : config) (srv : server) (snap : snapshot) (cs : bool) (lim : N).

  (* [deleg_req] of Proofs/DelegBoundP.v for a role among [names] *)
  Definition deleg_req_in (names : list bytes) (p : bytes) : Prop :=
    exists name m, In name names /\ lookup (json_of name) (sn_meta snap) = Some m
                   /\ p = role_filename cs (m_version m) name.

  Lemma deleg_req_in_incl a names p : incl a names -> deleg_req_in a p -> deleg_req_in names p.
  Proof. intros Ia (name & m & Hin & H). exists name, m. split; [apply Ia, Hin|exact H]. Qed.

  Lemma deleg_reqs_trans a b names w1 w2 w3 : incl a names -> incl b names ->
    logs_only (deleg_req_in a) w1 w2 -> logs_only (deleg_req_in b) w2 w3 -> logs_only (deleg_req_in names) w1 w3.
  Proof.
    intros Ia Ib L1 L2. apply (logs_only_trans _ w1 w2 w3).
    - exact (logs_only_impl _ _ _ _ (fun p => deleg_req_in_incl a names p Ia) L1).
    - exact (logs_only_impl _ _ _ _ (fun p => deleg_req_in_incl b names p Ib) L2).
  Qed.

  Lemma fetch_level_reqs dkeys all anc : forall todo acc w fetched w',
    fetch_level fixed cfg srv snap cs lim dkeys all todo anc acc w = (Ok fetched, w') ->
    logs_only (deleg_req_in (map (fun hc => dh_name (fst hc)) todo)) w w'.
  Proof.
    induction todo as [|[h o] rest IH]; intros acc w fetched w' H.
    { injection H as _ <-. apply logs_only_refl. }
    rewrite fetch_level_cons in H. apply fetch_role_inv in H as [(c & a & [=] & _)|(t0 & w1 & _ & (m & Hm & Hw) & H)].
    assert (Eo : w_log w1 = w_log w ++ [role_filename cs (m_version m) (dh_name h)]).
    { destruct Hw as [->|(r0 & Eo)]; [reflexivity|apply ds_op_inv in Eo as (Eo & _); exact Eo]. }
    apply IH in H. cbn [map fst].
    apply (deleg_reqs_trans [dh_name h] (map (fun hc => dh_name (fst hc)) rest) _ w w1 w'); [| | |exact H].
    - intros x [<-|[]]. left. reflexivity.
    - apply incl_tl, incl_refl.
    - exists [role_filename cs (m_version m) (dh_name h)]. split; [exact Eo|].
      constructor; [exists (dh_name h), m; cbn [In]; auto|constructor].
  Qed.

  Definition rec_reqs (rec : list N -> list (dhdr * option targets) -> list bytes -> world
                            -> res (list (dhdr * option targets)) * world) : Prop :=
    forall dk rs anc w out w', rec dk rs anc w = (Ok out, w') -> logs_only (deleg_req_in (roles_names out)) w w'.

  Lemma complete_role_reqs rec anc t0 w t w1 : rec_reqs rec ->
    complete_role rec anc t0 w = (Ok t, w1) -> logs_only (deleg_req_in (role_names t)) w w1.
  Proof.
    intros Hrec H. apply complete_role_inv in H as [(_ & _ & ->)|(Hd & [rs|c a] & E & [= ->])]; [apply logs_only_refl|].
    rewrite (role_names_set_roles _ _ Hd). exact (Hrec _ _ _ _ _ _ E).
  Qed.

  Lemma second_loop_reqs rec : rec_reqs rec -> forall todo anc remaining w out w',
    second_loop rec anc todo remaining w = (Ok out, w') -> logs_only (deleg_req_in (roles_names out)) w w'.
  Proof.
    intro Hrec. induction todo as [|[h o] rest IH]; intros anc remaining w out w' H.
    { injection H as _ <-. apply logs_only_refl. }
    rewrite second_loop_cons in H. destruct (lookup (dh_name h) remaining) as [t0|]; [|discriminate].
    destruct (complete_role rec (anc ++ [dh_name h]) t0 w) as [[t|c a] w1] eqn:E1; [|discriminate].
    destruct (second_loop rec anc rest (assoc_remove (dh_name h) remaining) w1) as [[rs2|c a] w2] eqn:E2; [|discriminate].
    injection H as <- <-. cbn [roles_names].
    exact (deleg_reqs_trans _ _ _ _ _ _ (incl_tl _ (incl_appl _ (incl_refl _))) (incl_tl _ (incl_appr _ (incl_refl _)))
             (complete_role_reqs _ _ _ _ _ _ Hrec E1) (IH _ _ _ _ _ E2)).
  Qed.

  Theorem load_delegs_reqs : forall fuel, rec_reqs (load_delegs fixed cfg srv snap cs lim fuel).
  Proof.
    induction fuel as [|f IH]; intros dk rs anc w out w' H; [discriminate|].
    pose proof (loaded_heads _ _ _ _ _ _ _ (load_delegs_spec _ _ _ _ _ _ _ _ _ _ _ _ H)) as Hfst.
    cbn [load_delegs] in H.
    destruct (fetch_level fixed cfg srv snap cs lim dk rs rs anc [] w) as [[fetched|c a] w1] eqn:E; [|discriminate].
    refine (deleg_reqs_trans _ _ _ _ _ _ _ (incl_refl _) (fetch_level_reqs _ _ _ _ _ _ _ _ E)
              (second_loop_reqs _ IH _ _ _ _ _ _ H)).
    intros x Hx. apply in_map_iff in Hx as (hc & <- & Hin). apply roles_names_heads. rewrite Hfst. apply in_map, Hin.
  Qed.
End Requests.

(* such a load does not depend on the world, and depends on the server only through its answers to those
   requests *)
Lemma load_delegs_replay cfg srv srv' snap cs lim fuel dk rs anc w out w' w2 :
  load_delegs fixed cfg srv snap cs lim fuel dk rs anc w = (Ok out, w') ->
  (forall p, deleg_req_in snap cs (roles_names out) p -> same_answer srv srv' p) -> quiet w2 ->
  exists w2', load_delegs fixed cfg srv' snap cs lim fuel dk rs anc w2 = (Ok out, w2').
Proof.
  intros H Hs Q. destruct (load_delegs_any_world _ _ _ _ _ _ _ _ _ _ _ _ _ H w2 Q) as (w2' & E & _).
  destruct (load_delegs_reqs _ _ _ _ _ _ _ _ _ _ _ _ E) as (l & L & F).
  exists w2'. refine (ext_res_added _ _ _ _ _ _ _ l (load_delegs_ext_res _ _ _ _ _ _ _ _ _ _ _ _) E L _).
  eapply Forall_impl; [exact Hs|exact F].
Qed.

(* the root walk on a copy: the requests for the versions up to the trusted one are answered alike, so the
   path is there as well; the request that ended the walk on the source (absent, fetch error, stream not
   found, or a root of the version already trusted) is answered alike or not found, so the walk has the same
   reason to stop - and a walk is complete: it ends with the same root *)
Lemma path_copy cfg srv srv' : forall l cur, path cfg srv cur l ->
  (forall v, r_version cur < v -> v <= r_version (last_root cur l) -> same_answer srv srv' (root_json v)) ->
  path cfg srv' cur l.
Proof.
  induction l as [|x l IH]; intros cur Hp Hs; [exact I|]. destruct Hp as [(file & Hf & Hb & V1 & V2 & Hlt) Hp].
  rewrite last_root_cons in Hs. pose proof (path_versions _ _ _ _ Hp) as Hle. split.
  - exists file. split; [rewrite (Hs (r_version cur + 1)); [exact Hf|lia|lia]|auto].
  - apply IH; [exact Hp|]. intros v H1 H2. apply Hs; lia.
Qed.

Lemma stopped_copy cfg srv srv' r :
  stopped cfg srv r -> alike_or_absent srv srv' (root_json (r_version r + 1)) -> stopped cfg srv' r.
Proof. unfold stopped. intros Hst [Hx|Hx]; rewrite (Hx _ _); [exact Hst|auto]. Qed.

Lemma root_walk_copy fx cfg srv srv' orig fuel cur w r w' :
  root_walk fx fuel cfg srv orig cur w = (Ok r, w') ->
  (forall v, r_version cur < v -> v <= r_version r -> same_answer srv srv' (root_json v)) ->
  alike_or_absent srv srv' (root_json (r_version r + 1)) ->
  exists w2, root_walk fx fuel cfg srv' orig cur w = (Ok r, w2).
Proof.
  intros H Hs Hx. apply root_walk_ok in H as (l & Hp & -> & Hst & _ & Hlim & Hlen).
  apply root_walk_complete; [exact (path_copy _ _ _ _ _ Hp Hs)|exact (stopped_copy _ _ _ _ Hst Hx)|exact Hlen|exact Hlim].
Qed.

Lemma load_timestamp_replay cfg r srv srv' now w ts w' w2 :
  load_timestamp fixed cfg r srv now w = (Ok ts, w') ->
  same_answer srv srv' name_timestamp ->
  quiet w2 -> clock_fwd now (w_store w2) -> st_ts (w_store w2) = None ->
  exists w2', load_timestamp fixed cfg r srv' now w2 = (Ok ts, w2') /\ quiet w2' /\ clock_fwd now (w_store w2')
              /\ st_snap (w_store w2') = st_snap (w_store w2) /\ st_tgt (w_store w2') = st_tgt (w_store w2).
Proof.
  intros H Hs Q C Hn. apply load_timestamp_ok in H as (((file & Hf & Hb) & V & _ & He) & _).
  destruct (load_timestamp_live cfg r srv' now w2 ts Q C) as (w2' & E & Q' & C' & S' & G').
  { split; [exists file; rewrite (Hs _ _); auto|]. split; [exact V|]. split; [|exact He].
    intros old Ho. rewrite Hn in Ho. discriminate. }
  exists w2'. auto.
Qed.

Lemma load_snapshot_replay cfg r ts srv srv' now w sn w' w2 :
  load_snapshot fixed cfg r ts srv now w = (Ok sn, w') ->
  same_answer srv srv' (versioned (r_cs r) (sn_version sn) name_snapshot) ->
  quiet w2 -> clock_fwd now (w_store w2) -> st_snap (w_store w2) = None ->
  exists w2', load_snapshot fixed cfg r ts srv' now w2 = (Ok sn, w2') /\ quiet w2' /\ clock_fwd now (w_store w2')
              /\ st_tgt (w_store w2') = st_tgt (w_store w2).
Proof.
  intros H Hs Q C Hn. apply load_snapshot_ok in H as (((m & file & Hm & Hf & Hb & Hv) & V & _ & He) & _).
  destruct (load_snapshot_live cfg r ts srv' now w2 sn Q C) as (w2' & E & Q' & C' & G').
  { split; [exists m, file; rewrite <- Hv, (Hs _ _), Hv; auto|]. split; [exact V|]. split; [|exact He].
    intros old Ho. rewrite Hn in Ho. discriminate. }
  exists w2'. auto.
Qed.

Lemma load_targets_replay cfg r sn srv srv' now w t w' w2 :
  load_targets fixed cfg r sn srv now w = (Ok t, w') ->
  same_answer srv srv' (versioned (r_cs r) (tg_version t) name_targets) ->
  (forall p, deleg_req_in sn (r_cs r) (role_names t) p -> same_answer srv srv' p) ->
  quiet w2 -> clock_fwd now (w_store w2) -> st_tgt (w_store w2) = None ->
  exists w2', load_targets fixed cfg r sn srv' now w2 = (Ok t, w2').
Proof.
  intros H Hs Hd Q C Hn.
  apply load_targets_ok in H as (m & t0 & s1 & w3 & Hm & ((m' & file & Hm' & Hf & Hb & Hv) & V & _ & He) & _ & _ & H).
  rewrite Hm in Hm'. injection Hm' as <-.
  assert (Hver : tg_version t = m_version m).
  { destruct (attach_ok _ _ _ _ _ _ _ _ _ _ H) as [[->|(rs & ->)] _]; [|rewrite tg_set_roles_version]; exact Hv. }
  rewrite Hver in Hs.
  destruct (load_targets_head_live cfg r sn srv' now w2 t0 Q C) as (m' & w4 & Hm' & Q4 & ->).
  { split; [exists m, file; rewrite (Hs _ _); auto|]. split; [exact V|]. split; [|exact He].
    intros old Ho. rewrite Hn in Ho. discriminate. }
  rewrite Hm in Hm'. injection Hm' as <-.
  apply attach_inv in H as [(Hd0 & _ & E)|(Hd0 & [rs|c a] & E4 & E)]; unfold attach, complete_role; rewrite Hd0.
  - destruct (validate t0); [|discriminate]. exists w4. symmetry in E. rewrite E. reflexivity.
  - destruct (validate (tg_set_roles t0 rs)) eqn:Val; [|discriminate]. injection E as ->.
    destruct (load_delegs_replay cfg srv srv' sn (r_cs r) _ _ _ _ _ _ _ _ w4 E4) as (w5 & E5); [|exact Q4|].
    { intros p Hp. apply Hd. rewrite (role_names_set_roles _ _ Hd0). exact Hp. }
    rewrite E5, Val. exists w5. reflexivity.
  - discriminate.
Qed.

Lemma cache_names_top rp b :
  In (cache_snapshot_name rp) (cache_names rp b) /\ In (cache_targets_name rp) (cache_names rp b)
  /\ In name_timestamp (cache_names rp b).
Proof.
  unfold cache_names. cbn [app].
  split; [left; reflexivity|]. split; [right; left; reflexivity|right; right; left; reflexivity].
Qed.

(* without consistent snapshots the file name does not carry the version, which is why [cache_delegated_name]
   then names the file of a role without looking the role up in the snapshot *)
Lemma role_filename_unversioned v v' name : role_filename false v name = role_filename false v' name.
Proof. reflexivity. Qed.

Lemma cache_names_delegated rp b p :
  deleg_req_in (rp_snap rp) (r_cs (rp_root rp)) (role_names (rp_targets rp)) p -> In p (cache_names rp b).
Proof.
  intros (name & m & Hin & Hm & ->). unfold cache_names. apply in_or_app. right. apply in_or_app. left.
  apply in_flat_map. exists name. split; [exact Hin|]. unfold cache_delegated_name.
  destruct (r_cs (rp_root rp)); [rewrite Hm|]; left; reflexivity.
Qed.

Lemma count_up_In n : forall from v, from <= v -> v < from + N.of_nat n -> In v (count_up n from).
Proof.
  induction n as [|n IH]; intros from v H1 H2; [lia|]. cbn [count_up].
  destruct (N.eq_dec from v) as [->|Hne]; [left; reflexivity|right]. apply IH; lia.
Qed.

Lemma cache_names_roots rp v : 1 <= v -> v <= r_version (rp_root rp) -> In (root_json v) (cache_names rp true).
Proof.
  intros H1 H2. unfold cache_names. apply in_or_app. right. apply in_or_app. right.
  apply in_map. apply count_up_In; lia.
Qed.

(* the three together on the copy: each leaves the next a datastore without a document of its kind *)
Lemma cycle_tail_replay cfg r srv now w1 ts w2 sn w3 t w4 names wa :
  load_timestamp fixed cfg r srv now w1 = (Ok ts, w2) ->
  load_snapshot fixed cfg r ts srv now w2 = (Ok sn, w3) ->
  load_targets fixed cfg r sn srv now w3 = (Ok t, w4) ->
  incl (cache_names {| rp_root := r; rp_ts := ts; rp_snap := sn; rp_targets := t |} false) names ->
  quiet wa -> clock_fwd now (w_store wa) ->
  st_ts (w_store wa) = None /\ st_snap (w_store wa) = None /\ st_tgt (w_store wa) = None ->
  exists wb wc wd,
    load_timestamp fixed cfg r (cache_srv srv names) now wa = (Ok ts, wb)
    /\ load_snapshot fixed cfg r ts (cache_srv srv names) now wb = (Ok sn, wc)
    /\ load_targets fixed cfg r sn (cache_srv srv names) now wc = (Ok t, wd).
Proof.
  intros H2 H3 H4 Hincl Q C (Nts & Nsn & Ntg).
  set (rp := {| rp_root := r; rp_ts := ts; rp_snap := sn; rp_targets := t |}) in *.
  destruct (cache_names_top rp false) as (InSnap & InTgt & InTs).
  destruct (load_timestamp_replay cfg r srv (cache_srv srv names) now w1 ts w2 wa H2) as (wb & Eb & Qb & Cb & Sb & Gb); auto.
  { apply cached_same_answer, Hincl, InTs. }
  destruct (load_snapshot_replay cfg r ts srv (cache_srv srv names) now w2 sn w3 wb H3) as (wc & Ec & Qc & Cc & Gc); auto.
  { apply cached_same_answer, Hincl, InSnap. }
  { congruence. }
  destruct (load_targets_replay cfg r sn srv (cache_srv srv names) now w3 t w4 wc H4) as (wd & Ed); auto.
  { apply cached_same_answer, Hincl, InTgt. }
  { intros p Hp. apply cached_same_answer, Hincl. apply (cache_names_delegated rp false p). exact Hp. }
  { congruence. }
  exists wb, wc, wd. auto.
Qed.

Lemma cache_names_incl rp : incl (cache_names rp false) (cache_names rp true).
Proof.
  unfold cache_names. intros x Hx. apply in_app_or in Hx as [Hx|Hx]; apply in_or_app; [left; exact Hx|right].
  rewrite app_nil_r in Hx. apply in_or_app. left. exact Hx.
Qed.

Lemma store0_cleared s : online_kept_or_cleared store0 s ->
  st_ts s = None /\ st_snap s = None /\ st_tgt s = None.
Proof. intros (G & [T|T] & [S|S]); repeat split; assumption. Qed.

(* C19: the copy, root chain included, read by a client that holds the same shipped root *)
Theorem copy_loads c s rp w' :
  run_cycle fixed c s = (Ok rp, w') ->
  exists w'', run_cycle fixed (copy_cycle c (cy_shipped c) (cache_names rp true)) store0 = (Ok rp, w'').
Proof.
  intro H. apply run_cycle_ok_inv in H as (r0 & w0 & w1 & w2 & w3 & Hship & V0 & Ew & Ef & E2 & E3 & E4).
  apply finish_root_ok in Ef as (_ & Hexp & _).
  destruct rp as [r ts sn t]. cbn [rp_root rp_ts rp_snap rp_targets] in *.
  set (rp := {| rp_root := r; rp_ts := ts; rp_snap := sn; rp_targets := t |}).
  (* the walk ends with the same root: the chain up to [r] is in the copy *)
  destruct (root_walk_copy _ _ _ (cache_srv (cy_srv c) (cache_names rp true)) _ _ _ _ _ _ Ew) as (wx & Ew');
    [|apply cached_or_absent|].
  { intros v Hv1 Hv2. apply cached_same_answer, cache_names_roots; cbn [rp rp_root]; lia. }
  destruct (load_root_live _ _ _ (cy_now c) (world0 store0 None) _ _ _ V0 Ew' eq_refl eq_refl (fun He => proj1 (Hexp He)))
    as (wa & Ea & Qa & Ca & Ka).
  destruct (cycle_tail_replay _ _ _ _ _ _ _ _ _ _ _ _ wa E2 E3 E4 (cache_names_incl rp) Qa Ca (store0_cleared _ Ka))
    as (wb & wc & wd & Eb & Ec & Ed).
  exists wd. unfold run_cycle. cbn [copy_cycle cy_cfg cy_shipped cy_srv cy_now cy_fault]. rewrite Hship.
  exact (cycle_ok_intro Ea Eb Ec Ed).
Qed.

(* C19 without the root chain: the copy read by a client whose shipped root is the trusted root; its walk
   makes one request, for the next version *)
Theorem copy_loads_no_chain c s rp w' :
  run_cycle fixed c s = (Ok rp, w') ->
  exists w'', run_cycle fixed (copy_cycle c (CRoot (rp_root rp)) (cache_names rp false)) store0 = (Ok rp, w'').
Proof.
  intro H. apply run_cycle_ok_inv in H as (r0 & w0 & w1 & w2 & w3 & Hship & V0 & Ew & Ef & E2 & E3 & E4).
  apply finish_root_ok in Ef as (_ & Hexp & _).
  destruct rp as [r ts sn t]. cbn [rp_root rp_ts rp_snap rp_targets] in *.
  set (rp := {| rp_root := r; rp_ts := ts; rp_snap := sn; rp_targets := t |}).
  assert (Hfuel : (0 < c_fuel (cy_cfg c))%nat) by (destruct (c_fuel (cy_cfg c)); [discriminate|lia]).
  apply root_walk_ok in Ew as (l & Hp & Hr & Hst & _ & Hlim & _).
  assert (Vr : root_verify r 0 (r_sigs r) = true).
  { rewrite Hr. destruct l as [|x l]; [exact V0|]. eapply path_last_verified; [exact Hp|discriminate]. }
  assert (Hlim' : r_version r < update_limit fixed (r_version r) (c_max_root_updates (cy_cfg c))).
  { pose proof (path_versions _ _ _ _ Hp) as Hle. rewrite <- Hr in Hle. exact (update_limit_mono fixed _ _ _ _ eq_refl Hle Hlim). }
  destruct (root_walk_complete fixed (cy_cfg c) (cache_srv (cy_srv c) (cache_names rp false)) (r_version r) []
              (c_fuel (cy_cfg c)) r (world0 store0 None) I (stopped_copy _ _ _ _ Hst (cached_or_absent _ _ _)) Hfuel Hlim')
    as (wx & Ew').
  destruct (load_root_live _ _ _ (cy_now c) (world0 store0 None) _ _ _ Vr Ew' eq_refl eq_refl (fun He => proj1 (Hexp He)))
    as (wa & Ea & Qa & Ca & Ka).
  destruct (cycle_tail_replay _ _ _ _ _ _ _ _ _ _ _ _ wa E2 E3 E4 (incl_refl _) Qa Ca (store0_cleared _ Ka))
    as (wb & wc & wd & Eb & Ec & Ed).
  exists wd. unfold run_cycle. cbn [copy_cycle cy_cfg cy_shipped cy_srv cy_now cy_fault].
  exact (cycle_ok_intro Ea Eb Ec Ed).
Qed.

(* non-vacuity: consistent snapshots; shipped root 1, the source serves root 2 under 2.root.json and
   again under 3.root.json (the walk stops there: equal version); targets delegates to role "a", which
   lists a target and delegates to role "b"; the first client runs from a datastore with a corrupt
   timestamp, an earlier time and a fault scheduled for an operation it never reaches. ([wk] and [w_file], a
   signature and a served file, are those of the witnesses in Proofs/RollbackP.v.) *)
Definition ex_roles : list (N * rolekeys) :=
  [(0, {| rk_keyids := [0]; rk_threshold := 1 |}); (1, {| rk_keyids := [1]; rk_threshold := 1 |});
   (2, {| rk_keyids := [2]; rk_threshold := 1 |}); (3, {| rk_keyids := [3]; rk_threshold := 1 |})].
Definition ex_root (v : N) : root :=
  {| r_version := v; r_expires := 100; r_cs := true; r_keys := [0; 1; 2; 3]; r_roles := ex_roles; r_sigs := [wk 0] |}.
Definition ex_tname : tname := {| tn_raw := [120]; tn_resolved := [120]; tn_hexdigest := [] |}.
Definition ex_b : targets := Targets 1 100 [] false [] [] [wk 8].
Definition ex_a : targets :=
  Targets 2 100 [(ex_tname, {| ti_len := 3; ti_digest := 9; ti_hex := [] |})] true [8]
          [({| dh_name := [98]; dh_keyids := [8]; dh_threshold := 1; dh_paths := Paths [[98; 42]] |}, None)] [wk 7].
Definition ex_targets : targets :=
  Targets 3 100 [] true [7]
          [({| dh_name := [97]; dh_keyids := [7]; dh_threshold := 1; dh_paths := Paths [[42]] |}, None)] [wk 2].
Definition ex_meta (v : N) : meta := {| m_version := v; m_length := Some 10; m_hash := Some 1 |}.
Definition ex_snap : snapshot :=
  {| sn_version := 4; sn_expires := 100;
     sn_meta := [(name_targets, ex_meta 3); (json_of [97], ex_meta 2); (json_of [98], ex_meta 1)]; sn_sigs := [wk 1] |}.
Definition ex_ts : timestamp :=
  {| ts_version := 5; ts_expires := 100; ts_meta := [(name_snapshot, ex_meta 4)]; ts_sigs := [wk 3] |}.
Definition ex_srv : server :=
  [(root_json 2, w_file (CRoot (ex_root 2))); (root_json 3, w_file (CRoot (ex_root 2)));
   (name_timestamp, w_file (CTs ex_ts)); (versioned true 4 name_snapshot, w_file (CSnap ex_snap));
   (versioned true 3 name_targets, w_file (CTargets ex_targets));
   (role_filename true 2 [97], w_file (CTargets ex_a)); (role_filename true 1 [98], w_file (CTargets ex_b));
   ([120], w_file CJunk)].
Definition ex_cfg : config :=
  {| c_max_root_size := 100; c_max_targets_size := 100; c_max_timestamp_size := 100;
     c_max_snapshot_size := 100; c_max_root_updates := 10; c_enforce := true; c_fuel := 20 |}.
Definition ex_cyc : cyc :=
  {| cy_cfg := ex_cfg; cy_shipped := CRoot (ex_root 1); cy_srv := ex_srv; cy_now := 50; cy_fault := Some (100%nat, 1) |}.
Definition ex_store : store :=
  {| st_root := None; st_ts := Some SCorrupt; st_snap := None; st_tgt := None; st_time := Some (SDoc 7%Z);
     st_others := [[1]] |}.

Example copy_loads_example :
  exists rp w',
    run_cycle fixed ex_cyc ex_store = (Ok rp, w')
    /\ r_version (rp_root rp) = 2 /\ role_names (rp_targets rp) = [[97]; [98]]
    /\ find_target ex_tname (rp_targets rp) <> None
    /\ In (root_json 3) (map fst (cy_srv ex_cyc)) /\ ~ In (root_json 3) (cache_names rp true)
    /\ length (cache_srv (cy_srv ex_cyc) (cache_names rp true)) = 6%nat
    /\ length (cache_srv (cy_srv ex_cyc) (cache_names rp false)) = 5%nat
    /\ (exists w'', run_cycle fixed (copy_cycle ex_cyc (cy_shipped ex_cyc) (cache_names rp true)) store0 = (Ok rp, w''))
    /\ (exists w'', run_cycle fixed (copy_cycle ex_cyc (CRoot (rp_root rp)) (cache_names rp false)) store0 = (Ok rp, w'')).
Proof.
  (* the outcome is named, so that the proof mentions its value once; the cycle is evaluated once, and the last
     two conjuncts are the two theorems applied to its outcome *)
  let v := eval vm_compute in (run_cycle fixed ex_cyc ex_store) in
  match v with (Ok ?x, ?y) => pose (rp := x); pose (w' := y) end.
  assert (E : run_cycle fixed ex_cyc ex_store = (Ok rp, w')) by (vm_compute; reflexivity).
  exists rp, w'. split; [exact E|].
  split; [reflexivity|]. split; [reflexivity|]. split; [vm_compute; discriminate|].
  split; [vm_compute; tauto|]. split; [vm_compute; intuition discriminate|].
  split; [vm_compute; reflexivity|]. split; [vm_compute; reflexivity|].
  split; [exact (copy_loads _ _ _ _ E)|exact (copy_loads_no_chain _ _ _ _ E)].
Qed.

Example copy_loads_example_thm :
  exists rp w', run_cycle fixed ex_cyc ex_store = (Ok rp, w')
    /\ (exists w'', run_cycle fixed (copy_cycle ex_cyc (cy_shipped ex_cyc) (cache_names rp true)) store0 = (Ok rp, w''))
    /\ (exists w'', run_cycle fixed (copy_cycle ex_cyc (CRoot (rp_root rp)) (cache_names rp false)) store0 = (Ok rp, w'')).
Proof.
  destruct copy_loads_example as (rp & w' & E & _).
  exists rp, w'. split; [exact E|]. split; [eapply copy_loads, E|eapply copy_loads_no_chain, E].
Qed.
