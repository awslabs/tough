(* The editing operations (Model/EdOps.v): what an accepted call has done, call by call, and programs as folds of
   calls. The names of the roles an editor holds come from the program's delegate_role calls (run_names), which is
   what composes a program whose final sign succeeds with the round trip of Proofs/EditorTreeP.v
   (C10_program_roundtrip); over a stretch of calls on one role the two target maps of a TargetsEditor refine one
   abstract map (run_view, program_view). Last, the example programs of Properties/C10.v. *)
From ToughV Require Import Model.Base Model.Pct Model.Sig Model.Glob Model.Deleg Model.Client Model.EditorRT Model.EdOps.
From ToughV Require Import Proofs.BaseP Proofs.SigP Proofs.EditorTreeP.

(* TargetName equality (derived Eq: raw and resolved) is equality of a key *)
Definition tkey (a : tname) : bytes * bytes := (tn_raw a, tn_resolved a).

Lemma tname_eqb_spec a b : tname_eqb a b = true <-> tkey a = tkey b.
Proof.
  unfold tname_eqb, tkey. rewrite andb_true_iff, !bytes_eqb_eq. split; [intros [-> ->]; reflexivity|intros [= -> ->]; auto].
Qed.
Lemma tname_eqb_false a b : tname_eqb a b = false <-> tkey a <> tkey b.
Proof. rewrite <- tname_eqb_spec. symmetry. apply not_true_iff_false. Qed.
Lemma tname_eqb_refl a : tname_eqb a a = true.
Proof. apply tname_eqb_spec. reflexivity. Qed.

(* closes a case in which the outcomes of comparing target names contradict each other *)
Ltac tkeys := rewrite ?tname_eqb_spec, ?tname_eqb_false in *; congruence.

Lemma lookup_tput n m i l :
  lookup_target n (tput m i l) = if tname_eqb n m then Some i else lookup_target n l.
Proof.
  induction l as [|[k v] l IH]; cbn [tput lookup_target]; [reflexivity|].
  destruct (tname_eqb m k) eqn:E; cbn [lookup_target]; rewrite ?IH;
    destruct (tname_eqb n m) eqn:F, (tname_eqb n k) eqn:G; try reflexivity; tkeys.
Qed.

Lemma lookup_tdel n m l :
  lookup_target n (tdel m l) = if tname_eqb n m then None else lookup_target n l.
Proof.
  induction l as [|[k v] l IH]; cbn [tdel filter lookup_target fst]; [destruct (tname_eqb n m); reflexivity|].
  fold (tdel m l). destruct (tname_eqb m k) eqn:E; cbn [negb lookup_target]; rewrite IH;
    destruct (tname_eqb n m) eqn:F, (tname_eqb n k) eqn:G; try reflexivity; tkeys.
Qed.

Lemma lookup_target_eqv a b l : tname_eqb a b = true -> lookup_target a l = lookup_target b l.
Proof.
  intro E. induction l as [|[k v] l IH]; cbn [lookup_target]; [reflexivity|]. rewrite IH.
  destruct (tname_eqb a k) eqn:F, (tname_eqb b k) eqn:G; try reflexivity; tkeys.
Qed.

Fixpoint tdistinct (l : list (tname * tinfo)) : Prop :=
  match l with
  | [] => True
  | (k, _) :: r => lookup_target k r = None /\ tdistinct r
  end.

Lemma tdistinct_tput m i l : tdistinct l -> tdistinct (tput m i l).
Proof.
  induction l as [|[k v] l IH]; cbn [tput tdistinct]; [auto|]. intros [H1 H2].
  destruct (tname_eqb m k) eqn:E; cbn [tdistinct].
  - split; [|exact H2]. rewrite (lookup_target_eqv m k l E). exact H1.
  - split; [|apply IH, H2]. rewrite lookup_tput, H1. destruct (tname_eqb k m) eqn:F; [tkeys|reflexivity].
Qed.

Lemma tdistinct_tdel m l : tdistinct l -> tdistinct (tdel m l).
Proof.
  induction l as [|[k v] l IH]; cbn [tdel filter tdistinct fst]; [auto|]. intros [H1 H2]. fold (tdel m l).
  destruct (tname_eqb m k) eqn:E; cbn [negb tdistinct]; [apply IH, H2|].
  split; [|apply IH, H2]. rewrite lookup_tdel, H1. destruct (tname_eqb k m); reflexivity.
Qed.

Lemma tdistinct_textend added : forall base, tdistinct base -> tdistinct (textend base added).
Proof.
  induction added as [|[m i] added IH]; intros base H; cbn [textend fold_left fst snd]; [exact H|].
  apply IH, tdistinct_tput, H.
Qed.

(* HashMap::extend: the added entries win *)
Lemma lookup_textend n added : forall base, tdistinct added ->
  lookup_target n (textend base added)
  = match lookup_target n added with Some i => Some i | None => lookup_target n base end.
Proof.
  induction added as [|[m i] added IH]; intros base H; cbn [textend fold_left lookup_target fst snd].
  - reflexivity.
  - destruct H as [H1 H2]. fold (textend (tput m i base) added). rewrite (IH _ H2), lookup_tput.
    destruct (tname_eqb n m) eqn:E; [|reflexivity].
    rewrite (lookup_target_eqv n m added E), H1. reflexivity.
Qed.

Arguments textend : simpl never.
Arguments tput : simpl never.
Arguments tdel : simpl never.

Lemma find_named_none name l : ~ In name (names l) -> find (named name) l = None.
Proof.
  intro H. apply find_all_false. intros x Hx. apply bytes_eqb_neq. intro E. apply H. rewrite <- E. apply in_names, Hx.
Qed.

Lemma find_flat_named name c : en_name c = name -> find (named name) (en_flat c) = Some c.
Proof. intros <-. rewrite en_flat_eq. cbn [find]. unfold named. rewrite bytes_eqb_refl. reflexivity. Qed.

Lemma find_flat_other m c :
  m <> en_name c -> ~ In m (names (all_roles (en_children c))) -> find (named m) (en_flat c) = None.
Proof. intros Hm Hc. apply find_named_none. rewrite names_flat. intros [H|H]; [exact (Hm (eq_sym H))|exact (Hc H)]. Qed.

Lemma find_role_in_in top name n : find_role_in name top = Some n -> In n (all_roles (en_children top)).
Proof. rewrite find_role_in_find. intro H. apply (find_some _ _ H). Qed.

Lemma find_role_in_name top : forall name n, find_role_in name top = Some n -> en_name n = name.
Proof. intros name n. rewrite find_role_in_find. intro H. apply bytes_eqb_eq, (find_some _ _ H). Qed.

(* everything a role says itself; of the roles it delegates to only the names (their documents are those
   roles' own) *)
Definition shallow (n : enode) :=
  (en_hdr n, en_version n, en_expires n, en_entries n, en_dkeys n, en_signers n, names (en_children n)).

Lemma shallow_name a b : shallow a = shallow b -> en_name a = en_name b.
Proof. unfold shallow, en_name. congruence. Qed.

Lemma shallow_children h v e en dk sg l l' :
  names l' = names l -> shallow (ENode h v e en dk l' sg) = shallow (ENode h v e en dk l sg).
Proof. unfold shallow. cbn [en_hdr en_version en_expires en_entries en_dkeys en_signers en_children]. intros ->. reflexivity. Qed.

Lemma shallow_names l l' : map shallow l' = map shallow l -> names l' = names l.
Proof.
  intro H. apply map_eq_Forall2 in H. induction H as [|b a l' l Hs _ IH]; [reflexivity|].
  cbn [names map]. f_equal; [apply shallow_name, Hs|exact IH].
Qed.

Lemma shallow_find m l l' : map shallow l' = map shallow l ->
  option_map shallow (find (named m) l') = option_map shallow (find (named m) l).
Proof.
  intro H. apply map_eq_Forall2 in H. induction H as [|b a l' l Hs _ IH]; [reflexivity|].
  cbn [find]. unfold named at 1 3. rewrite (shallow_name b a Hs).
  destruct (bytes_eqb (en_name a) m); [cbn [option_map]; f_equal; exact Hs|exact IH].
Qed.

Lemma replace_role_cons name d h v e en dk c r sg :
  replace_role name d (ENode h v e en dk (c :: r) sg)
  = if bytes_eqb (en_name c) name then Some (ENode h v e en dk (set_content c d :: r) sg)
    else match replace_role name d c with
         | Some c' => Some (ENode h v e en dk (c' :: r) sg)
         | None => match replace_role name d (ENode h v e en dk r sg) with
                   | Some n' => Some (ENode h v e en dk (c :: en_children n') sg)
                   | None => None
                   end
         end.
Proof.
  cbn [replace_role]. destruct (bytes_eqb (en_name c) name); [reflexivity|].
  destruct (replace_role name d c); [reflexivity|].
  match goal with |- context [?go r] => destruct (go r) end; reflexivity.
Qed.

(* the roles below [l'] are those below [l] with the content of [d] given to [c], the first role called [name]:
   the roles before it say of themselves what they said, the roles after it and below them are as they were *)
Definition replaced (name : bytes) (d c : enode) (l l' : list enode) : Prop :=
  en_name c = name /\
  exists l1 l1' l2, all_roles l = l1 ++ en_flat c ++ l2 /\ all_roles l' = l1' ++ en_flat (set_content c d) ++ l2
                    /\ map shallow l1' = map shallow l1 /\ ~ In name (names l1).

Lemma replace_role_flat name d n :
  match replace_role name d n with
  | Some n' => shallow n' = shallow n /\ exists c, replaced name d c (en_children n) (en_children n')
  | None => ~ In name (names (all_roles (en_children n)))
  end.
Proof.
  induction n as [|c r IHc IHr|h v e en dk ch sg IH] using enode_list_ind
    with (Q := fun l => forall h v e en dk sg,
                 match replace_role name d (ENode h v e en dk l sg) with
                 | Some n' => shallow n' = shallow (ENode h v e en dk l sg) /\ exists c, replaced name d c l (en_children n')
                 | None => ~ In name (names (all_roles l))
                 end).
  - intros h v e en dk sg [].
  - intros h v e en dk sg. rewrite replace_role_cons. destruct (bytes_eqb (en_name c) name) eqn:E.
    + (* the role itself *)
      split; [reflexivity|]. exists c. split; [apply bytes_eqb_eq, E|]. exists [], [], (all_roles r). repeat split; auto.
    + apply bytes_eqb_neq in E. destruct (replace_role name d c) as [c'|].
      * (* a role below c *)
        destruct IHc as (Hs & x & Hx & l1 & l1' & l2 & E1 & E2 & Hm & Hn).
        split; [apply shallow_children; cbn [names map]; f_equal; apply shallow_name, Hs|].
        exists x. split; [exact Hx|]. exists (c :: l1), (c' :: l1'), (l2 ++ all_roles r).
        cbn [en_children]. rewrite !all_roles_cons, E1, E2, <- !app_assoc. cbn [map]. rewrite Hs, Hm.
        repeat split. intros [H|H]; [exact (E H)|exact (Hn H)].
      * specialize (IHr h v e en dk sg). destruct (replace_role name d (ENode h v e en dk r sg)) as [n'|].
        -- (* a later sibling, or a role below one *)
           destruct IHr as (Hs & x & Hx & l1 & l1' & l2 & E1 & E2 & Hm & Hn).
           split; [apply shallow_children; cbn [names map]; f_equal; exact (f_equal snd Hs)|].
           exists x. split; [exact Hx|]. exists (en_flat c ++ l1), (en_flat c ++ l1'), l2.
           cbn [en_children]. unfold all_roles in *. cbn [flat_map]. rewrite E1, E2, <- !app_assoc, !map_app, Hm. repeat split.
           rewrite names_app, names_flat, in_app_iff.
           intros [[H|H]|H]; [exact (E H)|exact (IHc H)|exact (Hn H)].
        -- rewrite names_all_roles_cons, names_flat, in_app_iff. intros [[H|H]|H]; [exact (E H)|exact (IHc H)|exact (IHr H)].
  - apply IH.
Qed.

Lemma replace_role_inv name d top top' : replace_role name d top = Some top' ->
  shallow top' = shallow top /\ exists c, replaced name d c (en_children top) (en_children top').
Proof. intro H. pose proof (replace_role_flat name d top) as F. rewrite H in F. exact F. Qed.

Lemma replaced_find name d c l l' : replaced name d c l l' ->
  find (named name) (all_roles l) = Some c /\ find (named name) (all_roles l') = Some (set_content c d)
  /\ forall m, m <> name -> ~ In m (names (all_roles (en_children c))) -> ~ In m (names (all_roles (en_children d))) ->
       option_map shallow (find (named m) (all_roles l')) = option_map shallow (find (named m) (all_roles l)).
Proof.
  intros (Hc & l1 & l1' & l2 & -> & -> & Hs & Hn).
  assert (forall m, option_map shallow (find (named m) l1') = option_map shallow (find (named m) l1)) as Hf
    by (intro m; apply shallow_find, Hs).
  split; [|split].
  - rewrite !find_app, (find_named_none name l1 Hn), find_flat_named by exact Hc. reflexivity.
  - specialize (Hf name). rewrite (find_named_none name l1 Hn) in Hf. rewrite !find_app.
    destruct (find (named name) l1'); [discriminate Hf|]. rewrite find_flat_named by exact Hc. reflexivity.
  - intros m Hm Hold Hnew. specialize (Hf m). rewrite !find_app. rewrite <- Hc in Hm.
    destruct (find (named m) l1'), (find (named m) l1); try discriminate Hf; [exact Hf|].
    rewrite !find_flat_other by assumption. reflexivity.
Qed.

Lemma replace_role_names d top name top' : replace_role name d top = Some top' ->
  incl (names (all_roles (en_children top'))) (names (all_roles (en_children top)) ++ names (all_roles (en_children d))).
Proof.
  intro H. apply replace_role_inv in H as (_ & c & _ & l1 & l1' & l2 & -> & -> & Hs & _).
  rewrite !names_app, (shallow_names l1 l1' Hs), !names_flat. change (en_name (set_content c d)) with (en_name c).
  cbn [set_content en_children]. intro x. rewrite !in_app_iff. cbn [In]. tauto.
Qed.

Definition te_entries (te : ted) : list (tname * tinfo) := textend (te_existing te) (te_new te).

Lemma ted_build_doc r te keys doc : ted_build r te keys = Some doc ->
  en_entries doc = te_entries te /\ en_children doc = te_children te ++ te_new_roles te.
Proof.
  unfold ted_build. destruct (te_version te), (te_expires te); try discriminate.
  destruct (sign_as r (te_holder te) (te_name te) keys); [|discriminate]. intros [= <-]. split; reflexivity.
Qed.

Lemma sign_editor_inv r st keys st' : sign_editor r st keys = Some st' ->
  match rd_te st with
  | None => st' = st
  | Some te => exists doc top', ted_build r te keys = Some doc /\ rd_te st' = None /\ rd_top st' = Some top'
                 /\ if bytes_eqb (te_name te) name_targets_role then top' = doc
                    else exists top, rd_top st = Some top /\ replace_role (te_name te) doc top = Some top'
  end.
Proof.
  unfold sign_editor. destruct (rd_te st) as [te|]; [|intros [= <-]; reflexivity].
  destruct (ted_build r te keys) as [doc|]; [|discriminate]. destruct (bytes_eqb (te_name te) name_targets_role).
  - intros [= <-]. exists doc, doc. auto.
  - destruct (rd_top st) as [top|]; [|discriminate]. destruct (replace_role _ _ top) as [top'|] eqn:R; [|discriminate].
    intros [= <-]. exists doc, top'. repeat split. exists top. auto.
Qed.

Lemma incoming_inv r top name adds version expires keys inc :
  incoming r top name adds version expires keys = Some inc ->
  exists dk sibs cur signers,
    parent_in name top = Some (dk, sibs) /\ find_role_in name top = Some cur
    /\ sign_as r (HDeleg dk sibs) name keys = Some signers
    /\ inc = ENode (en_hdr cur) version expires (textend (en_entries cur) adds) (en_dkeys cur) (en_children cur) signers.
Proof.
  unfold incoming. pose proof (parent_find_hdr name top) as F.
  destruct (parent_in name top) as [[dk sibs]|]; [|discriminate]. destruct F as (cur & -> & _).
  destruct (sign_as r (HDeleg dk sibs) name keys) as [signers|] eqn:S; [|discriminate].
  intros [= <-]. exists dk, sibs, cur, signers. repeat split. exact S.
Qed.

Lemma update_delegated_inv st name inc st' : update_delegated st name inc = Some st' ->
  exists top dk sibs cur ch' top',
    (rd_top st = Some top /\ parent_in name top = Some (dk, sibs) /\ find_role_in name top = Some cur)
    /\ (deleg_verify fixed dk (hdrs_of sibs) name (sign_with (dh_keyids (en_hdr cur)) (en_signers inc)) = true
        /\ en_version cur <= en_version inc)
    /\ attach_loaded cur (en_children inc) = Some ch'
    /\ replace_role name (ENode top_hdr (en_version inc) (en_expires inc) (en_entries inc) (en_dkeys inc) ch' (en_signers inc)) top
       = Some top'
    /\ rd_te st' = None /\ rd_top st' = Some top'.
Proof.
  unfold update_delegated. destruct (rd_top st) as [top|]; [|discriminate]. pose proof (parent_find_hdr name top) as F.
  destruct (parent_in name top) as [[dk sibs]|] eqn:P; [|discriminate]. destruct F as (cur & F & _). rewrite F.
  destruct (deleg_verify _ _ _ _ _) eqn:V; [|discriminate]. destruct (en_version cur <=? en_version inc) eqn:Hv; [|discriminate].
  cbn [andb]. destruct (attach_loaded cur (en_children inc)) as [ch'|] eqn:A; [|discriminate].
  destruct (replace_role name _ top) as [top'|] eqn:R; [|discriminate]. intros [= <-].
  exists top, dk, sibs, cur, ch', top'. repeat split; try assumption. lia.
Qed.

(* change_delegated_targets: a fresh editor on the role as the tree has it *)
Lemma change_inv r st role st' : ed_step r st (OpChange role) = Some st' ->
  exists top h n, rd_te st = None /\ rd_top st = Some top /\ st' = with_te st (ted_from role h n)
    /\ if bytes_eqb role name_targets_role then h = HRoot /\ n = top
       else exists dk sibs, h = HDeleg dk sibs /\ parent_in role top = Some (dk, sibs) /\ find_role_in role top = Some n.
Proof.
  cbn [ed_step]. destruct (rd_te st); [discriminate|]. destruct (rd_top st) as [top|]; [|discriminate].
  destruct (bytes_eqb role name_targets_role).
  - intros [= <-]. exists top, HRoot, top. auto.
  - pose proof (parent_find_hdr role top) as F. destruct (parent_in role top) as [[dk sibs]|] eqn:P; [|discriminate].
    destruct F as (n & F & _). rewrite F. intros [= <-]. exists top, (HDeleg dk sibs), n. repeat split. exists dk, sibs. auto.
Qed.

Record settings := { g_tv : option N; g_texp : option Z; g_sv : option N; g_sexp : option Z; g_tsv : option N; g_tsexp : option Z }.
Definition settings_of (st : red) (te : ted) : settings :=
  {| g_tv := te_version te; g_texp := te_expires te; g_sv := rd_sv st; g_sexp := rd_sexp st; g_tsv := rd_tsv st; g_tsexp := rd_tsexp st |}.

Lemma at_sign_inv st keys ss : ed_at_sign st keys = Some ss ->
  exists te, rd_te st = Some te /\ te_name te = name_targets_role
    /\ settings_of st te = {| g_tv := Some (e_tv (ss_edit ss)); g_texp := Some (e_texp (ss_edit ss));
                              g_sv := Some (e_sv (ss_edit ss)); g_sexp := Some (e_sexp (ss_edit ss));
                              g_tsv := Some (e_tsv (ss_edit ss)); g_tsexp := Some (e_tsexp (ss_edit ss)) |}
    /\ e_entries (ss_edit ss) = te_entries te /\ ss_dkeys ss = te_dkeys te
    /\ ss_children ss = te_children te ++ te_new_roles te /\ ss_keys ss = dedup keys.
Proof.
  unfold ed_at_sign, settings_of. intro H. destruct (rd_te st) as [te|]; [|discriminate]. exists te.
  destruct (rd_sv st), (rd_sexp st), (rd_tsv st), (rd_tsexp st); try discriminate.
  destruct (bytes_eqb (te_name te) name_targets_role) eqn:En; [|discriminate].
  destruct (te_version te), (te_expires te); try discriminate. injection H as <-.
  apply bytes_eqb_eq in En. repeat split. exact En.
Qed.

Definition ed_next (r : root) (st : red) (o : edop) : red :=
  match ed_step r st o with Some st' => st' | None => st end.

Lemma run_fold r ops : forall st, fst (ed_run r st ops) = fold_left (ed_next r) ops st.
Proof.
  induction ops as [|o ops IH]; intro st; cbn [ed_run fold_left]; [reflexivity|]. unfold ed_next at 2.
  destruct (ed_step r st o) as [st'|]; rewrite <- IH; destruct (ed_run r _ ops); reflexivity.
Qed.

Lemma run_app r a b st : fst (ed_run r st (a ++ b)) = fst (ed_run r (fst (ed_run r st a)) b).
Proof. rewrite !run_fold. apply fold_left_app. Qed.

Lemma run_ind r (ok : edop -> bool) (R : list edop -> red -> Prop) st :
  R [] st ->
  (forall done st' o, ok o = true -> R done st' -> R (done ++ [o]) (ed_next r st' o)) ->
  forall ops, forallb ok ops = true -> R ops (fst (ed_run r st ops)).
Proof.
  intros H0 Hstep ops. rewrite run_fold. induction ops as [|o ops IH] using rev_ind; intro Hok; [exact H0|].
  rewrite forallb_app in Hok. apply andb_true_iff in Hok as [Hops Ho]. cbn [forallb] in Ho. rewrite andb_true_r in Ho.
  rewrite fold_left_app. apply Hstep; auto.
Qed.

(* operations that leave the editor on the same role *)
Definition stays (o : edop) : bool :=
  match o with
  | OpSignEditor _ | OpChange _ | OpFromRepo | OpSign _ | OpUpdate _ _ _ _ _ => false
  | _ => true
  end.

(* of those, the ones that touch neither its key table nor the roles it delegates to: the operations of an
   update (C17) *)
Definition plain (o : edop) : bool :=
  match o with
  | OpAdd _ _ | OpRemove _ | OpClear | OpTargetsVersion _ | OpTargetsExpires _
  | OpSnapshotVersion _ | OpSnapshotExpires _ | OpTimestampVersion _ | OpTimestampExpires _ => true
  | _ => false
  end.
Lemma plain_stays o : plain o = true -> stays o = true.
Proof. destruct o; cbn; congruence. Qed.

(* Every role an editor holds was created by a delegate_role call of the program (run_names): the names below the
   signed tree and below the role under edit, against the names the program's calls give *)
Definition op_names (o : edop) : list bytes :=
  match o with OpDelegate name _ _ _ _ _ => [name] | _ => [] end.
Definition ops_names (ops : list edop) : list bytes := flat_map op_names ops.

Definition top_names (st : red) : list bytes :=
  match rd_top st with Some t => names (all_roles (en_children t)) | None => [] end.
Definition te_names (st : red) : list bytes :=
  match rd_te st with Some te => names (all_roles (te_children te ++ te_new_roles te)) | None => [] end.
Definition st_names (st : red) : list bytes := top_names st ++ te_names st.

Lemma top_names_some st t : rd_top st = Some t -> top_names st = names (all_roles (en_children t)).
Proof. unfold top_names. intros ->. reflexivity. Qed.
Lemma te_names_some st te : rd_te st = Some te -> te_names st = names (all_roles (te_children te ++ te_new_roles te)).
Proof. unfold te_names. intros ->. reflexivity. Qed.
Lemma te_names_none st : rd_te st = None -> te_names st = [].
Proof. unfold te_names. intros ->. reflexivity. Qed.
Lemma st_names_with_te st te :
  st_names (with_te st te) = top_names st ++ names (all_roles (te_children te ++ te_new_roles te)).
Proof. reflexivity. Qed.

Lemma sign_editor_leaves r st keys st' : sign_editor r st keys = Some st' ->
  incl (st_names st') (st_names st) /\ (st' = st \/ rd_te st' = None).
Proof.
  intro H. apply sign_editor_inv in H. destruct (rd_te st) as [te|] eqn:Hte; [|subst st'; split; [apply incl_refl|auto]].
  destruct H as (doc & top' & B & Hte' & Htop' & Hrep). split; [|auto]. apply ted_build_doc in B as [_ Bc].
  unfold st_names. rewrite (top_names_some _ _ Htop'), (te_names_none _ Hte'), (te_names_some _ _ Hte), app_nil_r, <- Bc.
  destruct (bytes_eqb (te_name te) name_targets_role).
  - subst top'. apply incl_appr, incl_refl.
  - destruct Hrep as (top & Htop & R). rewrite (top_names_some _ _ Htop). apply (replace_role_names _ _ _ _ R).
Qed.

Lemma attach_loaded_names cur : forall l l', attach_loaded cur l = Some l' ->
  incl (names (all_roles l')) (names l ++ names (all_roles (en_children cur))).
Proof.
  induction l as [|c rest IH]; intros l' H; cbn [attach_loaded] in H.
  - injection H as <-. intros x [].
  - destruct (find_role_in (en_name c) cur) as [x|] eqn:F; [|discriminate].
    destruct (attach_loaded cur rest) as [rest'|]; [|discriminate]. injection H as <-.
    specialize (IH rest' eq_refl). pose proof (sub_names cur x (find_role_in_in cur _ x F)) as Hx.
    rewrite names_all_roles_cons, names_flat. cbn [names map set_content en_children]. fold (names rest).
    change (en_name (set_content c x)) with (en_name c).
    intros y Hy. specialize (IH y). specialize (Hx y). rewrite !in_app_iff in *. cbn [In] in *. tauto.
Qed.

Lemma incoming_names r top name adds version expires keys inc :
  incoming r top name adds version expires keys = Some inc ->
  incl (names (all_roles (en_children inc))) (names (all_roles (en_children top))).
Proof.
  intro H. apply incoming_inv in H as (dk & sibs & cur & signers & _ & F & _ & ->). cbn [en_children].
  apply (sub_names top), (find_role_in_in top name cur F).
Qed.

Lemma update_delegated_leaves st name inc st' : update_delegated st name inc = Some st' ->
  incl (st_names st') (st_names st ++ names (all_roles (en_children inc))) /\ rd_te st' = None.
Proof.
  intro H. apply update_delegated_inv in H as (top & dk & sibs & cur & ch' & top' & (Htop & _ & F) & _ & A & R & Hte' & Htop').
  split; [|exact Hte']. unfold st_names. rewrite (top_names_some _ _ Htop'), (te_names_none _ Hte'), (top_names_some _ _ Htop), app_nil_r.
  apply replace_role_names in R. cbn [en_children] in R. apply attach_loaded_names in A.
  pose proof (sub_names top cur (find_role_in_in top name cur F)) as Hcur.
  assert (incl (names (en_children inc)) (names (all_roles (en_children inc)))) as Hinc
    by (apply incl_map; intros y; apply in_all_roles).
  intros x Hx. apply R in Hx. specialize (A x). specialize (Hcur x). specialize (Hinc x).
  rewrite !in_app_iff in *. tauto.
Qed.

Lemma step_leaves r st o st' : stays o = false -> ed_step r st o = Some st' ->
  incl (st_names st') (st_names st)
  /\ (st' = st \/ rd_te st' = None \/ exists name h n, rd_te st' = Some (ted_from name h n)).
Proof.
  destruct o; try discriminate; intros _; cbn [ed_step].
  - (* sign_targets_editor *)
    intro H. apply sign_editor_leaves in H as [Hn [H|H]]; auto.
  - (* change: the roles below the role taken under edit are roles of the tree *)
    intro H. apply (change_inv r) in H as (top & h & n & Hte & Htop & -> & Hn).
    split; [|right; right; exists role, h, n; reflexivity].
    rewrite st_names_with_te. cbn [ted_from te_children te_new_roles]. unfold st_names.
    rewrite (te_names_none _ Hte), (top_names_some _ _ Htop), !app_nil_r.
    apply incl_app; [apply incl_refl|]. destruct (bytes_eqb role name_targets_role).
    + destruct Hn as [_ ->]. apply incl_refl.
    + destruct Hn as (dk & sibs & _ & _ & F). apply (sub_names top), (find_role_in_in top role n F).
  - (* from_repo *)
    destruct (rd_top st) as [top|] eqn:Htop; [|discriminate]. intros [= <-]. split; [|right; right; repeat eexists].
    unfold st_names at 1, top_names at 1, te_names at 1. cbn [rd_top rd_te ted_from te_children te_new_roles].
    unfold st_names. rewrite (top_names_some _ _ Htop), !app_nil_r. apply incl_app; apply incl_appl, incl_refl.
  - (* sign *)
    destruct (ed_at_sign st keys); [|discriminate]. destruct (sign_accepts r s); [|discriminate].
    intro H. apply sign_editor_leaves in H as [Hn [H|H]]; auto.
  - (* update *)
    destruct (bytes_eqb name name_targets_role); [discriminate|]. destruct (rd_top st) as [top|] eqn:Htop; [|discriminate].
    destruct (incoming r top name adds version expires keys) as [inc|] eqn:I; [|discriminate]. intro H.
    apply update_delegated_leaves in H as [H Hte']. split; [|auto]. apply incoming_names in I.
    intros x Hx. apply H in Hx. apply in_app_iff in Hx as [Hx|Hx]; [exact Hx|].
    unfold st_names. rewrite (top_names_some _ _ Htop). apply in_app_iff. left. apply I, Hx.
Qed.

Lemma step_names r st o st' : ed_step r st o = Some st' -> incl (st_names st') (st_names st ++ op_names o).
Proof.
  destruct (stays o) eqn:S; [|intro H; apply incl_appl, (step_leaves r st o st' S H)].
  intro H. destruct (plain o) eqn:Hp.
  - (* targets and settings: the tree is the same, and the role under edit, if there is one, delegates to the roles
       it did *)
    replace (st_names st') with (st_names st); [apply incl_appl, incl_refl|]. unfold st_names, top_names, te_names.
    destruct o; try discriminate Hp; cbn [ed_step] in H; destruct (rd_te st); try discriminate H; injection H as <-;
      reflexivity.
  - (* delegate_role: one new role, of the name given *)
    destruct o; try discriminate S; try discriminate Hp. cbn [ed_step op_names] in *.
    destruct (if bytes_eqb name name_targets_role then [] else keys) as [|k0 keys']; [discriminate|].
    destruct (rd_te st) as [te|] eqn:Hte; [|discriminate]. injection H as <-.
    rewrite st_names_with_te. unfold st_names. rewrite (te_names_some _ _ Hte). cbn [te_children te_new_roles].
    rewrite (app_assoc (te_children te)), (names_all_roles_app _ [_]), !app_assoc. apply incl_refl.
Qed.

Lemma run_names r ops st : incl (st_names (fst (ed_run r st ops))) (st_names st ++ ops_names ops).
Proof.
  apply (run_ind r (fun _ => true) (fun done st' => incl (st_names st') (st_names st ++ ops_names done))).
  - rewrite app_nil_r. apply incl_refl.
  - intros done st' o _ IH. unfold ops_names. rewrite flat_map_app. cbn [flat_map]. rewrite app_nil_r, app_assoc.
    unfold ed_next. destruct (ed_step r st' o) as [st''|] eqn:S; [|apply incl_appl, IH].
    eapply incl_tran; [exact (step_names r st' o st'' S)|]. apply incl_app; [apply incl_appl, IH|apply incl_appr, incl_refl].
  - apply forallb_forall. reflexivity.
Qed.

Definition te_lookup (te : ted) (n : tname) : option tinfo := lookup_target n (te_entries te).

Definition spec_targets_step (o : edop) (f : tname -> option tinfo) : tname -> option tinfo :=
  match o with
  | OpAdd m i => fun n => if tname_eqb n m then Some i else f n
  | OpRemove m => fun n => if tname_eqb n m then None else f n
  | OpClear => fun _ => None
  | _ => f
  end.
Definition spec_targets (ops : list edop) (f : tname -> option tinfo) : tname -> option tinfo :=
  fold_left (fun g o => spec_targets_step o g) ops f.

Definition settings_step (o : edop) (g : settings) : settings :=
  match o with
  | OpTargetsVersion v => {| g_tv := Some v; g_texp := g_texp g; g_sv := g_sv g; g_sexp := g_sexp g; g_tsv := g_tsv g; g_tsexp := g_tsexp g |}
  | OpTargetsExpires e => {| g_tv := g_tv g; g_texp := Some e; g_sv := g_sv g; g_sexp := g_sexp g; g_tsv := g_tsv g; g_tsexp := g_tsexp g |}
  | OpSnapshotVersion v => {| g_tv := g_tv g; g_texp := g_texp g; g_sv := Some v; g_sexp := g_sexp g; g_tsv := g_tsv g; g_tsexp := g_tsexp g |}
  | OpSnapshotExpires e => {| g_tv := g_tv g; g_texp := g_texp g; g_sv := g_sv g; g_sexp := Some e; g_tsv := g_tsv g; g_tsexp := g_tsexp g |}
  | OpTimestampVersion v => {| g_tv := g_tv g; g_texp := g_texp g; g_sv := g_sv g; g_sexp := g_sexp g; g_tsv := Some v; g_tsexp := g_tsexp g |}
  | OpTimestampExpires e => {| g_tv := g_tv g; g_texp := g_texp g; g_sv := g_sv g; g_sexp := g_sexp g; g_tsv := g_tsv g; g_tsexp := Some e |}
  | _ => g
  end.

(* HashMap keys are distinct. Of the two maps only the added one needs it: it is the one extend runs through *)
Definition te_ok (te : ted) : Prop := tdistinct (te_new te).

Lemma te_lookup_eq te n : te_ok te ->
  te_lookup te n = match lookup_target n (te_new te) with Some i => Some i | None => lookup_target n (te_existing te) end.
Proof. apply lookup_textend. Qed.

(* state [st'] still has the editor that [st] had as [te], now [te'], on the same role over the same tree; its two
   maps amount to the map [f], its settings are [g]; if [same_deleg], its key table and the roles delegated to since
   it was created are those of [te] as well *)
Set Implicit Arguments.
Record on_role (st : red) (te : ted) (f : tname -> option tinfo) (g : settings) (same_deleg : bool)
               (st' : red) (te' : ted) : Prop := {
  on_te : rd_te st' = Some te';
  on_ok : te_ok te';
  on_name : te_name te' = te_name te;
  on_holder : te_holder te' = te_holder te;
  on_children : te_children te' = te_children te;
  on_top : rd_top st' = rd_top st;
  on_lookup : forall n, te_lookup te' n = f n;
  on_settings : settings_of st' te' = g;
  on_deleg : same_deleg = true -> te_dkeys te' = te_dkeys te /\ te_new_roles te' = te_new_roles te
}.
Unset Implicit Arguments.

Lemma on_role_start st te f : rd_te st = Some te -> te_ok te -> (forall n, te_lookup te n = f n) ->
  on_role st te f (settings_of st te) true st te.
Proof. intros Hte Hok Hf. split; auto. Qed.

Lemma next_view r st te f g k st1 te1 o : on_role st te f g k st1 te1 -> stays o = true ->
  exists te2, on_role st te (spec_targets_step o f) (settings_step o g) (k && plain o) (ed_next r st1 o) te2.
Proof.
  intros [Hte Hok Hn Hh Hc Ht Hf Hg Hk] Hs. subst g. unfold ed_next.
  destruct (plain o) eqn:Hp; rewrite ?andb_true_r, ?andb_false_r.
  - (* Targets and settings. The call leaves the editor [te1] with other maps, version or expiration, or leaves it
       alone and sets a field of the state; every operation but add and remove leaves both maps as they were,
       or empty. *)
    destruct o; try discriminate Hp; cbn [ed_step spec_targets_step]; rewrite ?Hte;
      eexists; (split; [reflexivity|..]); try assumption; try reflexivity.
    + (* add_target *) apply tdistinct_tput, Hok.
    + intro x. rewrite <- Hf, !te_lookup_eq by (try apply tdistinct_tput; exact Hok).
      cbn [set_targets te_new te_existing]. rewrite lookup_tput. destruct (tname_eqb x n); reflexivity.
    + (* remove_target *) apply tdistinct_tdel, Hok.
    + intro x. rewrite <- Hf, !te_lookup_eq by (try apply tdistinct_tdel; exact Hok).
      cbn [set_targets te_new te_existing]. rewrite !lookup_tdel. destruct (tname_eqb x n); reflexivity.
  - (* delegate_role, refused (no key, or the name "targets") or not: maps and settings are as they were, and nothing
       is claimed of key table and new roles *)
    destruct o; try discriminate Hs; try discriminate Hp. cbn [ed_step spec_targets_step settings_step]. rewrite Hte.
    destruct (if bytes_eqb name name_targets_role then [] else keys);
      eexists; (split; [first [exact Hte|reflexivity]|..]); try assumption; try reflexivity; discriminate.
Qed.

Lemma run_view r st te f ops : rd_te st = Some te -> te_ok te -> (forall n, te_lookup te n = f n) ->
  forallb stays ops = true ->
  exists te', on_role st te (spec_targets ops f) (fold_left (fun g o => settings_step o g) ops (settings_of st te))
                      (forallb plain ops) (fst (ed_run r st ops)) te'.
Proof.
  intros Hte Hok Hf.
  apply (run_ind r stays (fun done st' =>
           exists te', on_role st te (spec_targets done f) (fold_left (fun g o => settings_step o g) done (settings_of st te))
                               (forallb plain done) st' te')).
  - exists te. exact (on_role_start st te f Hte Hok Hf).
  - intros done st' o Ho [te' V]. unfold spec_targets. rewrite !fold_left_app, forallb_app. cbn [fold_left forallb].
    rewrite andb_true_r. exact (next_view r _ _ _ _ _ _ _ o V Ho).
Qed.

Definition editor_ok (st : red) : Prop := forall te, rd_te st = Some te -> te_ok te.

Lemma next_editor_ok r st o : editor_ok st -> editor_ok (ed_next r st o).
Proof.
  intro Hok. destruct (stays o) eqn:S.
  - destruct (rd_te st) as [te|] eqn:Hte.
    + destruct (next_view r _ _ _ _ _ _ _ o (on_role_start st te _ Hte (Hok te Hte) (fun _ => eq_refl)) S) as [te' V].
      intros te'' H'. rewrite (on_te V) in H'. injection H' as <-. exact (on_ok V).
    + (* no editor: nothing is created *)
      intros te' H. exfalso. revert H. unfold ed_next.
      destruct o; try discriminate S; cbn [ed_step]; rewrite ?Hte; cbn [rd_te]; try congruence.
      destruct (if bytes_eqb name name_targets_role then [] else keys); congruence.
  - (* no editor is left, or a fresh one, whose map of added targets is empty *)
    unfold ed_next. destruct (ed_step r st o) as [st'|] eqn:H; [|exact Hok].
    destruct (proj2 (step_leaves r st o st' S H)) as [->|[H'|(name & h & n & H')]]; [exact Hok| |]; intros te Hte; rewrite H' in Hte.
    + discriminate Hte.
    + injection Hte as <-. exact I.
Qed.

Lemma run_editor_ok r ops st : editor_ok st -> editor_ok (fst (ed_run r st ops)).
Proof.
  intro H. apply (run_ind r (fun _ => true) (fun _ => editor_ok)); [exact H| |apply forallb_forall; reflexivity].
  intros _ st' o _. apply next_editor_ok.
Qed.

(* [pre] any program that leaves an editor [te0] ([f], as a map), [seg] operations on its role: the client finds
   in the top-level role the abstract map after [seg], with the versions and expirations set last *)
Theorem program_view (len_of dig_of : content -> N) r pre seg keys te0 f tg sn ts srv :
  rd_te (fst (ed_run r red_new pre)) = Some te0 ->
  (forall n, te_lookup te0 n = f n) ->
  forallb stays seg = true ->
  ed_program_sign len_of dig_of r (pre ++ seg) keys = Some (tg, sn, ts, srv) ->
  (forall n, lookup_target n (tg_entries tg) = spec_targets seg f n)
  /\ fold_left (fun g o => settings_step o g) seg (settings_of (fst (ed_run r red_new pre)) te0)
     = {| g_tv := Some (tg_version tg); g_texp := Some (tg_expires tg); g_sv := Some (sn_version sn); g_sexp := Some (sn_expires sn);
          g_tsv := Some (ts_version ts); g_tsexp := Some (ts_expires ts) |}.
Proof.
  intros Hte Hf Hs Hsign. unfold ed_program_sign in Hsign. rewrite run_app in Hsign.
  assert (te_ok te0) as Hok0 by (apply (run_editor_ok r pre red_new); [intros te [= <-]; exact I|exact Hte]).
  destruct (run_view r _ te0 f seg Hte Hok0 Hf Hs) as [te' V].
  destruct (ed_at_sign _ keys) as [ss|] eqn:Ess; [|discriminate].
  apply at_sign_inv in Ess as (te & Hte' & _ & Hset & Hent & _). rewrite (on_te V) in Hte'. injection Hte' as <-.
  destruct (ed_sign_tree_inv _ _ _ _ _ _ _ _ _ _ _ Hsign) as (st & sns & sts & _ & _ & -> & -> & -> & _).
  cbn [top_loaded tree_snapshot ed_timestamp tg_entries tg_version tg_expires sn_version sn_expires ts_version ts_expires].
  split; [intro n; rewrite Hent; apply (on_lookup V)|rewrite <- (on_settings V); exact Hset].
Qed.

(* non-vacuity (C10_program_example): a program that builds targets -> A -> C and targets -> B, with additions, a
   removal and an update, ends in the tree of C10_delegated_example (but for the target of C), signs, and the
   client loads it; the same program with one signature less for B is refused by sign *)
Definition p_hdr_paths (p : bytes) : pathset := Paths [p].
Definition x_prog (b_keys : list N) : list edop :=
  [OpAdd (x_tn [116]) (x_ti 4 40); OpAdd (x_tn [117]) (x_ti 6 60); OpRemove (x_tn [117]); OpAdd (x_tn [116]) (x_ti 5 50);
   OpDelegate [65] [4; 5; 6] (p_hdr_paths [97; 47; 42]) 2 500 1;
   OpDelegate [66] [7; 8; 9] (p_hdr_paths [98; 47; 42]) 2 400 2;
   OpTargetsVersion 2; OpTargetsExpires 900; OpSignEditor [2; 20];
   OpChange [65]; OpAdd (x_tn [97; 47; 120]) (x_ti 1 10);
   OpDelegate [67] [10; 11; 12] (p_hdr_paths [97; 47; 99; 47; 42]) 2 300 1;
   OpTargetsVersion 3; OpTargetsExpires 500; OpSignEditor [4; 6; 2];
   OpChange [66]; OpAdd (x_tn [98; 47; 122]) (x_ti 2 20); OpTargetsVersion 2; OpTargetsExpires 400; OpSignEditor b_keys;
   OpChange name_targets_role;
   OpTargetsVersion 7; OpTargetsExpires 900; OpSnapshotVersion 8; OpSnapshotExpires 800;
   OpTimestampVersion 9; OpTimestampExpires 700].

(* non-vacuity of the cross-party flow (C10_cross_party_example): the program above, signed and written; the holder
   of A (keys 4, 5, 6; threshold 2) adds a target at version 5 and signs with two of its keys; the owner takes the
   metadata in, signs again, and the client loads the new target; with one key the holder cannot sign, and an older
   version is refused *)
Definition x_cross (holder_keys : list N) (v : N) : list edop :=
  x_prog [9; 8; 2] ++ [OpSign [1; 2; 3; 20]; OpFromRepo;
                        OpUpdate [65] [(x_tn [97; 47; 110; 101; 119], x_ti 7 70)] v 450 holder_keys;
                        OpChange name_targets_role;
                        OpTargetsVersion 8; OpTargetsExpires 900; OpSnapshotVersion 9; OpSnapshotExpires 800;
                        OpTimestampVersion 10; OpTimestampExpires 700].
