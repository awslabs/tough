(* C10 with delegated roles: what the editor signs and writes for a tree of delegated roles (Model/EditorRT.v
   ed_sign_tree), the client loads back unchanged (editor_client_roundtrip_tree). On the way: the first
   role of a name in the tree, which is what the editor's searches return; what the client needs of a directory to
   load the tree ([build]); file names, and through them what the written directory and snapshot hold. Last, the
   example repositories of Properties/C10.v. *)
From ToughV Require Import Model.Base Model.Pct Model.Sig Model.Glob Model.Deleg Model.Client Model.EditorRT Model.EdOps.
From ToughV Require Import Proofs.BaseP Proofs.PctP Proofs.SigP Proofs.ClientP Proofs.DelegLoadP Proofs.LivenessP.

Lemma lookup_head {V} k (v : V) m : lookup k ((k, v) :: m) = Some v.
Proof. cbn [lookup]. rewrite bytes_eqb_refl. reflexivity. Qed.

Lemma lookup_tail {V} k k' (v : V) m : k <> k' -> lookup k ((k', v) :: m) = lookup k m.
Proof. intro H. apply bytes_eqb_neq in H. cbn [lookup]. rewrite H. reflexivity. Qed.

Lemma lookup_write_all_other {V} k (l : list (bytes * V)) : forall m,
  ~ In k (map fst l) -> lookup k (write_all l m) = lookup k m.
Proof.
  induction l as [|[k' v'] r IH]; intros m Hn; [reflexivity|]. cbn [write_all]. rewrite IH.
  - apply lookup_insert_other. intro E. apply Hn. left. symmetry. exact E.
  - intro Hin. apply Hn. right. exact Hin.
Qed.

Lemma lookup_write_all_in {V} k (v : V) (l : list (bytes * V)) : forall m,
  NoDup (map fst l) -> In (k, v) l -> lookup k (write_all l m) = Some v.
Proof.
  induction l as [|[k' v'] r IH]; intros m ND Hin; [contradiction|]. cbn [write_all].
  cbn [map fst] in ND. inversion ND as [|? ? Hnot ND']; subst. destruct Hin as [E|Hin].
  - inversion E; subst. rewrite lookup_write_all_other by exact Hnot. apply lookup_insert_same.
  - apply IH; assumption.
Qed.

Lemma lookup_write_all_inv {V} k (v : V) (l : list (bytes * V)) m :
  lookup k (write_all l m) = Some v -> In k (map fst l) \/ lookup k m = Some v.
Proof.
  intro H. destruct (in_dec (list_eq_dec N.eq_dec) k (map fst l)) as [Hin|Hn]; [left; exact Hin|].
  right. rewrite lookup_write_all_other in H by exact Hn. exact H.
Qed.

(* induction over a tree of roles shows [P] of a role from [Q] of the list of roles it delegates to *)
Section EnodeInd.
  Variables (P : enode -> Prop) (Q : list enode -> Prop).
  Hypothesis Hnil : Q [].
  Hypothesis Hcons : forall c r, P c -> Q r -> Q (c :: r).
  Hypothesis Hnode : forall h v e en dk ch sg, Q ch -> P (ENode h v e en dk ch sg).
  Fixpoint enode_list_ind (n : enode) : P n :=
    match n return P n with
    | ENode h v e en dk ch sg =>
        Hnode h v e en dk ch sg
              ((fix go (l : list enode) : Q l :=
                  match l return Q l with
                  | [] => Hnil
                  | c :: r => Hcons c r (enode_list_ind c) (go r)
                  end) ch)
    end.
End EnodeInd.

Lemma enode_in_ind (P : enode -> Prop) :
  (forall h v e en dk ch sg, (forall c, In c ch -> P c) -> P (ENode h v e en dk ch sg)) -> forall n, P n.
Proof.
  intro H. apply (enode_list_ind P (fun l => forall c, In c l -> P c)); [intros c []| |exact H].
  intros c r Hc Hr x [<-|Hx]; [exact Hc|exact (Hr x Hx)].
Qed.

Lemma en_flat_eq n : en_flat n = n :: all_roles (en_children n).
Proof. destruct n; reflexivity. Qed.

Lemma all_roles_cons c r : all_roles (c :: r) = c :: all_roles (en_children c) ++ all_roles r.
Proof. unfold all_roles. cbn [flat_map]. rewrite en_flat_eq. reflexivity. Qed.

Lemma in_flat_self n : In n (en_flat n).
Proof. rewrite en_flat_eq. left. reflexivity. Qed.

Lemma in_all_roles c ch : In c ch -> In c (all_roles ch).
Proof. intro H. apply in_flat_map. exists c. split; [exact H|apply in_flat_self]. Qed.

Lemma in_all_roles_sub c ch x : In c ch -> In x (en_flat c) -> In x (all_roles ch).
Proof. intros H Hx. apply in_flat_map. exists c. auto. Qed.

Lemma sub_roles p : forall n, In n (all_roles (en_children p)) ->
  incl (all_roles (en_children n)) (all_roles (en_children p)).
Proof.
  induction p as [h v e en dk ch sg IH] using enode_in_ind. cbn [en_children]. intros n Hn x Hx.
  apply in_flat_map in Hn as (c & Hc & Hn). apply (in_all_roles_sub c ch x Hc). rewrite en_flat_eq. right.
  rewrite en_flat_eq in Hn. destruct Hn as [<-|Hn]; [exact Hx|exact (IH c Hc n Hn x Hx)].
Qed.

Lemma child_in_flat p q c : In q (en_flat p) -> In c (en_children q) -> In c (all_roles (en_children p)).
Proof.
  intros Hq Hc. apply in_all_roles in Hc. rewrite en_flat_eq in Hq.
  destruct Hq as [<-|Hq]; [exact Hc|exact (sub_roles p q Hq c Hc)].
Qed.

Definition names (l : list enode) : list bytes := map en_name l.

Lemma names_app l1 l2 : names (l1 ++ l2) = names l1 ++ names l2.
Proof. apply map_app. Qed.

Lemma in_names x l : In x l -> In (en_name x) (names l).
Proof. apply (in_map en_name). Qed.

Lemma names_flat c : names (en_flat c) = en_name c :: names (all_roles (en_children c)).
Proof. rewrite en_flat_eq. reflexivity. Qed.

Lemma names_all_roles_cons c l : names (all_roles (c :: l)) = names (en_flat c) ++ names (all_roles l).
Proof. unfold names, all_roles. cbn [flat_map]. rewrite map_app. reflexivity. Qed.

Lemma names_all_roles_app l1 l2 : names (all_roles (l1 ++ l2)) = names (all_roles l1) ++ names (all_roles l2).
Proof. unfold names, all_roles. rewrite flat_map_app, map_app. reflexivity. Qed.

Lemma sub_names p n : In n (all_roles (en_children p)) ->
  incl (names (all_roles (en_children n))) (names (all_roles (en_children p))).
Proof. intro Hn. apply incl_map, sub_roles, Hn. Qed.

Lemma nodup_siblings ch : NoDup (names (all_roles ch)) -> NoDup (names ch).
Proof.
  induction ch as [|c r IH]; [constructor|]. rewrite names_all_roles_cons, names_flat. intro ND.
  apply NoDup_app_inv in ND as (_ & Nr & Hd). cbn [names map]. constructor; [|apply IH, Nr].
  intro Hin. apply (Hd (en_name c)); [left; reflexivity|].
  apply in_map_iff in Hin as (x & <- & Hx). apply in_names, in_all_roles, Hx.
Qed.

Lemma nodup_child ch c : NoDup (names (all_roles ch)) -> In c ch ->
  NoDup (names (all_roles (en_children c))) /\ ~ In (en_name c) (names (all_roles (en_children c))).
Proof.
  intros ND Hc. apply in_split in Hc as (l1 & l2 & ->). rewrite names_all_roles_app, names_all_roles_cons in ND.
  apply NoDup_app_inv in ND as (_ & ND & _). apply NoDup_app_inv in ND as (Nc & _).
  rewrite names_flat in Nc. inversion Nc; subst. auto.
Qed.

(* The first role of a name in pre-order. Targets::delegated_role (find_role_in) returns it,
   Targets::parent_of (parent_in) the key table and the delegated roles of the role that delegates to it:
   both look through the roles below a role in pre-order, each taken with its delegating role ([edges]). *)
Definition named (name : bytes) (c : enode) : bool := bytes_eqb (en_name c) name.

Lemma find_role_in_find name n : find_role_in name n = find (named name) (all_roles (en_children n)).
Proof.
  induction n as [|c r IHc IHr|h v e en dk ch sg IH] using enode_list_ind
    with (Q := fun l => forall h v e en dk sg,
                 find_role_in name (ENode h v e en dk l sg) = find (named name) (all_roles l)).
  - reflexivity.
  - intros h v e en dk sg. rewrite all_roles_cons. cbn [find]. rewrite find_app, <- IHc, <- (IHr h v e en dk sg). reflexivity.
  - apply IH.
Qed.

Fixpoint edges (n : enode) : list (enode * enode) := flat_map (fun c => (n, c) :: edges c) (en_children n).

Lemma edges_roles n : map snd (edges n) = all_roles (en_children n).
Proof.
  induction n as [|c r IHc IHr|h v e en dk ch sg IH] using enode_list_ind
    with (Q := fun l => forall q, map snd (flat_map (fun c => (q, c) :: edges c) l) = all_roles l).
  - reflexivity.
  - intro q. rewrite all_roles_cons. cbn [flat_map]. rewrite map_app. cbn [map snd]. rewrite IHc, IHr. reflexivity.
  - apply IH.
Qed.

Lemma edges_in top : forall q c, In q (en_flat top) -> In c (en_children q) -> In (q, c) (edges top).
Proof.
  induction top as [h v e en dk ch sg IH] using enode_in_ind. intros q c Hq Hc.
  rewrite en_flat_eq in Hq. cbn [edges en_children] in *. apply in_flat_map. destruct Hq as [<-|Hq].
  - exists c. split; [exact Hc|left; reflexivity].
  - apply in_flat_map in Hq as (c0 & Hc0 & Hq). exists c0. split; [exact Hc0|right; exact (IH c0 Hc0 q c Hq Hc)].
Qed.

(* the loop of parent_in over the roles a role delegates to; what it answers for one of them, [res], names them all *)
Fixpoint parent_go (name : bytes) (res : list N * list enode) (l : list enode) : option (list N * list enode) :=
  match l with
  | [] => None
  | c :: rest => if bytes_eqb (en_name c) name then Some res
                 else match parent_in name c with
                      | Some x => Some x
                      | None => parent_go name res rest
                      end
  end.

Lemma parent_in_eq name n : parent_in name n = parent_go name (en_dkeys n, en_children n) (en_children n).
Proof.
  destruct n as [h v e en dk ch sg]. cbn [parent_in en_dkeys en_children].
  generalize (dk, ch) as res. induction ch as [|c r IH]; intro res; [reflexivity|]. cbn [parent_go]. rewrite <- IH. reflexivity.
Qed.

(* parent_in answers with the delegating role [q] of the first role [c] of that name, and [c] is then the
   first of that name among the roles [q] delegates to: those before it were passed on the way *)
Lemma first_edge name n :
  match find (fun x => named name (snd x)) (edges n) with
  | Some (q, c) => parent_in name n = Some (en_dkeys q, en_children q) /\ find (named name) (en_children q) = Some c
  | None => parent_in name n = None
  end.
Proof.
  induction n as [|c r IHc IHr|h v e en dk ch sg IH] using enode_list_ind
    with (Q := fun l => forall q l0, en_children q = l0 ++ l -> find (named name) l0 = None ->
                 match find (fun x => named name (snd x)) (flat_map (fun c => (q, c) :: edges c) l) with
                 | Some (q', c) => parent_go name (en_dkeys q, en_children q) l = Some (en_dkeys q', en_children q')
                                   /\ find (named name) (en_children q') = Some c
                 | None => parent_go name (en_dkeys q, en_children q) l = None
                 end).
  - reflexivity.
  - intros q l0 Hq H0. cbn [flat_map app find snd parent_go]. unfold named at 1. destruct (bytes_eqb (en_name c) name) eqn:E.
    + split; [reflexivity|]. rewrite Hq, find_app, H0. cbn [find]. unfold named at 1. rewrite E. reflexivity.
    + rewrite find_app. destruct (find _ (edges c)) as [[q' c']|].
      * destruct IHc as [-> H]. split; [reflexivity|exact H].
      * rewrite IHc. apply (IHr q (l0 ++ [c])); [rewrite <- app_assoc; exact Hq|].
        rewrite find_app, H0. cbn [find]. unfold named at 1. rewrite E. reflexivity.
  - rewrite parent_in_eq. exact (IH (ENode h v e en dk ch sg) [] eq_refl eq_refl).
Qed.

Lemma find_hdr_find name l c : find (named name) l = Some c -> find_hdr name (hdrs_of l) = Some (en_hdr c).
Proof.
  induction l as [|x l IH]; [discriminate|]. cbn [find hdrs_of map find_hdr fst]. unfold named at 1. fold (en_name x).
  destruct (bytes_eqb (en_name x) name) eqn:E.
  - intros [= <-]. apply bytes_eqb_eq in E. rewrite E, bytes_eqb_refl. reflexivity.
  - apply bytes_eqb_neq in E. assert (bytes_eqb name (en_name x) = false) as -> by (apply bytes_eqb_neq; congruence). exact IH.
Qed.

(* the header under which deleg_verify checks a document for [name] is that of the role find_role_in finds *)
Lemma parent_find_hdr name n :
  match parent_in name n with
  | Some (dk, sibs) => exists cur, find_role_in name n = Some cur /\ find_hdr name (hdrs_of sibs) = Some (en_hdr cur)
  | None => find_role_in name n = None
  end.
Proof.
  rewrite find_role_in_find, <- edges_roles, find_map. pose proof (first_edge name n) as F.
  destruct (find _ (edges n)) as [[q c]|]; [|rewrite F; reflexivity].
  destruct F as [-> F]. exists c. split; [reflexivity|apply find_hdr_find, F].
Qed.

(* with pairwise distinct names every role is the first of its name *)
Lemma parent_in_tree top : NoDup (names (all_roles (en_children top))) ->
  forall q c, In q (en_flat top) -> In c (en_children q) ->
  parent_in (en_name c) top = Some (en_dkeys q, en_children q).
Proof.
  intros ND q c Hq Hc. pose proof (first_edge (en_name c) top) as F.
  assert (find (fun x => named (en_name c) (snd x)) (edges top) = Some (q, c)) as E.
  { apply (find_unique (fun x => en_name (snd x)) (edges top) (q, c)); [|apply edges_in; assumption].
    rewrite <- (map_map snd en_name), edges_roles. exact ND. }
  rewrite E in F. exact (proj1 F).
Qed.

Lemma fetch_mkfile len_of dig_of srv name c limit hash :
  lookup name srv = Some (Served (mkfile len_of dig_of c)) -> len_of c <= limit ->
  (hash = None \/ hash = Some (dig_of c)) ->
  fetch srv name limit hash = FOk (mkfile len_of dig_of c).
Proof.
  intros Hl Hle Hh. unfold fetch. rewrite Hl. cbn [mkfile f_fail f_len f_digest].
  change (0 =? 1) with false. change (0 =? 2) with false. cbv iota.
  assert ((limit <? len_of c) = false) as -> by lia.
  destruct Hh as [->| ->]; [reflexivity|]. rewrite N.eqb_refl. reflexivity.
Qed.

Lemma fetch_pinned len_of dig_of srv name c :
  lookup name srv = Some (Served (mkfile len_of dig_of c)) ->
  fetch srv name (len_of c) (Some (dig_of c)) = FOk (mkfile len_of dig_of c).
Proof. intro Hl. apply fetch_mkfile; [exact Hl|apply N.le_refl|right; reflexivity]. Qed.

Lemma final_root_stays cfg r srv now :
  root_verify r 0 (r_sigs r) = true -> r_version r < update_limit fixed (r_version r) (c_max_root_updates cfg) ->
  (1 <= c_fuel cfg)%nat -> lookup (root_json (r_version r + 1)) srv = None ->
  final_root fixed {| cy_cfg := cfg; cy_shipped := CRoot r; cy_srv := srv; cy_now := now; cy_fault := None |} = Some r.
Proof.
  intros Vr Hlim Hfuel Hroot. unfold final_root. cbn [cy_shipped cy_cfg cy_srv]. rewrite Vr.
  destruct (c_fuel cfg) as [|fuel]; [inversion Hfuel|].
  cbn [root_walk]. apply N.ltb_lt in Hlim. rewrite Hlim. unfold fetch. rewrite Hroot. reflexivity.
Qed.

(* a tree of roles, each verified under its delegating role, listed in the snapshot and served, is loadable:
   the [tree] predicate of Proofs/LivenessP.v *)
Section Build.
  Variables (len_of dig_of : content -> N).
  Variables (cfg : config) (srv : server) (sn : snapshot) (cs : bool).

  Definition listed (c : enode) : Prop :=
    lookup (json_of (en_name c)) (sn_meta sn) = Some (meta_of len_of dig_of (en_version c) (CTargets (en_file_doc c)))
    /\ fetch srv (role_filename cs (en_version c) (en_name c)) (len_of (CTargets (en_file_doc c)))
             (Some (dig_of (CTargets (en_file_doc c)))) = FOk (mkfile len_of dig_of (CTargets (en_file_doc c))).

  Definition good (q : enode) : Prop :=
    forall c, In c (en_children q) ->
      deleg_verify fixed (en_dkeys q) (hdrs_of (en_children q)) (en_name c) (en_sigs c) = true /\ listed c.

  Lemma build p : (forall q, In q (en_flat p) -> good q) ->
    forall fuel anc, (en_depth p <= fuel)%nat ->
    NoDup (names (all_roles (en_children p))) ->
    (forall n, In n (all_roles (en_children p)) -> ~ In (en_name n) anc) ->
    tree cfg srv sn cs fuel anc (en_dkeys p) (hdrs_of (en_children p)) (loaded_roles (en_children p)).
  Proof.
    induction p as [h v e en dk ch sg IH] using enode_in_ind. intros Hgood fuel anc Hfuel ND Hanc.
    cbn [en_dkeys en_children en_depth] in *. destruct fuel as [|fuel]; [lia|]. cbn [tree]. split.
    - unfold hdrs_of. rewrite map_map. cbn [fst]. apply nodup_siblings, ND.
    - unfold hdrs_of, loaded_roles. apply Forall2_map_same. intros c Hc. cbn [fst snd].
      split; [reflexivity|]. split; [apply Hanc, in_all_roles, Hc|].
      destruct (Hgood _ (in_flat_self _) c Hc) as (Hver & Hl & Hf).
      exists (en_file_doc c). split.
      + (* the role's own file is acceptable *)
        exists (meta_of len_of dig_of (en_version c) (CTargets (en_file_doc c))), (mkfile len_of dig_of (CTargets (en_file_doc c))).
        split; [exact Hl|]. cbn [meta_of m_version m_length m_hash opt_default]. split; [exact Hf|].
        split; [reflexivity|]. split; [exact Hver|]. destruct c; reflexivity.
      + (* the roles below it: one level less, names still distinct, [c] one more ancestor *)
        right. split; [destruct c; reflexivity|]. exists (loaded_roles (en_children c)).
        split; [destruct c; reflexivity|].
        assert (Hd : (en_depth c <= fuel)%nat).
        { assert (Hle : (list_max (map en_depth ch) <= fuel)%nat) by lia. rewrite list_max_le in Hle.
          rewrite Forall_forall in Hle. apply Hle. apply in_map, Hc. }
        destruct (nodup_child ch c ND Hc) as (NDc & Hnc).
        pose proof (sub_roles (ENode h v e en dk ch sg) c (in_all_roles c ch Hc)) as Hsub.
        replace (tg_dkeys (en_file_doc c)) with (en_dkeys c) by (destruct c; reflexivity).
        replace (tg_roles (en_file_doc c)) with (hdrs_of (en_children c)) by (destruct c; reflexivity).
        apply IH; [exact Hc| |exact Hd|exact NDc|].
        * intros q Hq. apply Hgood. rewrite en_flat_eq. right. eapply in_all_roles_sub; eassumption.
        * intros n Hn Hin. apply in_app_or in Hin as [Hin|[Hin|[]]].
          -- exact (Hanc n (Hsub n Hn) Hin).
          -- apply Hnc. fold (en_name c) in Hin. rewrite Hin. apply in_names, Hn.
  Qed.
End Build.

(* File names. Every metadata file but the root's is named role_filename cs v <role> (Model/Pct.v), the
   top-level ones included, since percent-encoding leaves a name of letters and digits alone. Two such names
   are equal only for equal role names (PctP.role_filename_injective), or, one with version prefix and the
   other without, when the role name of the latter itself begins "<version>." *)
Definition small (n : bytes) : Prop := Forall (fun c => c < 256) n.

Lemma role_filename_mixed v1 v2 n1 n2 : small n1 -> small n2 ->
  role_filename true v1 n1 = role_filename false v2 n2 -> n2 = dec v1 ++ 46 :: n1.
Proof.
  intros S1 S2 E. unfold role_filename in E. cbn [app] in E. rewrite app_assoc in E. apply app_inv_tail in E.
  assert (U : Forall (fun c => unreserved c = true) (dec v1 ++ [46])).
  { apply Forall_app. split; [|repeat constructor]. eapply Forall_impl; [|apply dec_digits].
    intro c. unfold is_digit, unreserved, is_alnum. lia. }
  rewrite <- (pct_encode_unreserved _ U), <- pct_encode_app, <- app_assoc in E.
  symmetry. apply pct_encode_injective; [|exact S2|exact E].
  change (46 :: n1) with ([46] ++ n1). rewrite app_assoc. apply Forall_app. split; [apply unreserved_bytes, U|exact S1].
Qed.

Section TopLevelName.
  (* a role name of letters and digits: the four top-level ones *)
  Variable b : bytes.
  Hypothesis Hb : forallb is_alnum b = true.

  Lemma alnum_unreserved : Forall (fun c => unreserved c = true) b.
  Proof.
    apply Forall_forall. intros c Hc. rewrite forallb_forall in Hb. unfold unreserved. rewrite (Hb c Hc). reflexivity.
  Qed.

  Lemma alnum_no_dot v n : b <> dec v ++ 46 :: n.
  Proof. intro E. rewrite forallb_forall in Hb. specialize (Hb 46). rewrite E in Hb. discriminate (Hb (in_elt _ _ _)). Qed.

  (* name_targets is json_of name_targets_role, name_timestamp is versioned false 0 (json_of name_timestamp_role),
     root_json v is versioned true v (json_of name_root_role), all by computation *)
  Lemma versioned_json cs v : versioned cs v (json_of b) = role_filename cs v b.
  Proof.
    unfold versioned, role_filename, json_of. rewrite (pct_encode_unreserved _ alnum_unreserved).
    destruct cs; [rewrite <- app_assoc|]; reflexivity.
  Qed.

  Lemma role_file_not_top c1 c2 v1 v2 n : small n -> n <> b ->
    (c1 = false -> c2 = true -> n <> dec v2 ++ 46 :: b) ->
    role_filename c1 v1 n <> versioned c2 v2 (json_of b).
  Proof.
    intros Hn Hne Hx. rewrite versioned_json. pose proof (unreserved_bytes _ alnum_unreserved) as Sb.
    destruct c1, c2; intro E.
    - exact (role_filename_distinct _ _ _ _ _ Hn Sb Hne E).
    - exact (alnum_no_dot _ _ (role_filename_mixed _ _ _ _ Hn Sb E)).
    - exact (Hx eq_refl eq_refl (role_filename_mixed _ _ _ _ Sb Hn (eq_sym E))).
    - exact (role_filename_distinct _ _ _ _ _ Hn Sb Hne E).
  Qed.
End TopLevelName.

Lemma top_file_apart c1 c2 v1 v2 a b : forallb is_alnum a = true -> forallb is_alnum b = true -> a <> b ->
  versioned c1 v1 (json_of a) <> versioned c2 v2 (json_of b).
Proof.
  intros Ha Hb Hne. rewrite (versioned_json a Ha). apply role_file_not_top; [exact Hb| |exact Hne|].
  - apply unreserved_bytes, alnum_unreserved, Ha.
  - intros _ _. apply alnum_no_dot, Ha.
Qed.

Lemma top_alnum b : mem_bytes b top_role_names = true -> forallb is_alnum b = true.
Proof. intro H. apply mem_bytes_In in H. repeat destruct H as [<-|H]; [reflexivity..|contradiction]. Qed.

Definition dot_root : bytes := [46; 114; 111; 111; 116].
(* the one delegated role name whose file is the next root file when file names carry no version *)
Definition next_root_role (r : root) : bytes := dec (r_version r + 1) ++ dot_root.

Section Written.
  Variables (len_of dig_of : content -> N) (cs : bool) (e : edit) (ch : list enode).

  Hypothesis ND : NoDup (map en_name (all_roles ch)).
  Hypothesis Hsmall : Forall (fun n => small (en_name n)) (all_roles ch).
  Hypothesis Hnotop : forall n, In n (all_roles ch) -> mem_bytes (en_name n) top_role_names = false.

  Let rfile (n : enode) : bytes := role_filename cs (en_version n) (en_name n).
  Let served (c : content) : served := Served (mkfile len_of dig_of c).

  Lemma small_role n : In n (all_roles ch) -> small (en_name n).
  Proof. intro H. rewrite Forall_forall in Hsmall. apply Hsmall, H. Qed.

  (* the directory; [doc], [sn] and [ts] are what the three top-level files hold *)
  Variables (doc : targets) (sn : snapshot) (ts : timestamp).
  Let srv : server := tree_files len_of dig_of cs e doc sn ts ch.

  (* the file of top-level role [b] at version [v] is no delegated role's file - but for file names without
     version and a role called "<v>.<b>" -, so it is looked up among the three top-level files *)
  Lemma srv_top c v b : mem_bytes b top_role_names = true ->
    (forall n, In n (all_roles ch) -> cs = false -> c = true -> en_name n <> dec v ++ 46 :: b) ->
    lookup (versioned c v (json_of b)) srv
    = lookup (versioned c v (json_of b)) [(versioned cs (e_tv e) (json_of name_targets_role), served (CTargets doc));
                                           (versioned cs (e_sv e) (json_of name_snapshot_role), served (CSnap sn));
                                           (versioned false 0 (json_of name_timestamp_role), served (CTs ts))].
  Proof.
    intros Hb Hx. unfold srv, tree_files. apply lookup_write_all_other. rewrite map_map. cbn [fst].
    intro Hin. apply in_map_iff in Hin as (n & E & Hn). revert E.
    apply role_file_not_top; [apply top_alnum, Hb|apply small_role, Hn| |exact (Hx n Hn)].
    intro E. rewrite <- E, (Hnotop n Hn) in Hb. discriminate.
  Qed.

  Local Ltac top_apart := apply top_file_apart; [reflexivity|reflexivity|discriminate].

  Lemma srv_targets : lookup (versioned cs (e_tv e) name_targets) srv = Some (served (CTargets doc)).
  Proof.
    change name_targets with (json_of name_targets_role). rewrite srv_top; [apply lookup_head|reflexivity|congruence].
  Qed.

  Lemma srv_snapshot : lookup (versioned cs (e_sv e) name_snapshot) srv = Some (served (CSnap sn)).
  Proof.
    change name_snapshot with (json_of name_snapshot_role). rewrite srv_top; [|reflexivity|congruence].
    rewrite lookup_tail by top_apart. apply lookup_head.
  Qed.

  Lemma srv_timestamp : lookup name_timestamp srv = Some (served (CTs ts)).
  Proof.
    change name_timestamp with (versioned false 0 (json_of name_timestamp_role)).
    rewrite srv_top; [|reflexivity|congruence]. rewrite !lookup_tail by top_apart. apply lookup_head.
  Qed.

  Lemma srv_no_next_root v :
    (cs = false -> ~ In (dec v ++ dot_root) (map en_name (all_roles ch))) -> lookup (root_json v) srv = None.
  Proof.
    intro Hnr. change (root_json v) with (versioned true v (json_of name_root_role)).
    rewrite srv_top; [rewrite !lookup_tail by top_apart; reflexivity|reflexivity|].
    intros n Hn Hcs _ E. apply (Hnr Hcs). change dot_root with (46 :: name_root_role). rewrite <- E. apply in_map, Hn.
  Qed.

  Lemma srv_role n : In n (all_roles ch) -> lookup (rfile n) srv = Some (served (CTargets (en_file_doc n))).
  Proof.
    intro Hn. unfold srv, tree_files. apply lookup_write_all_in.
    - rewrite map_map. cbn [fst]. eapply NoDup_map_from; [exact ND|]. intros x y Hx Hy E.
      eapply role_filename_injective; [apply small_role, Hx|apply small_role, Hy|exact E].
    - apply (in_map (fun n => (rfile n, served (CTargets (en_file_doc n))))), Hn.
  Qed.

  Variable sigs : list sig.
  Let snap : snapshot := tree_snapshot len_of dig_of e doc ch sigs.

  Lemma sn_role n : In n (all_roles ch) ->
    lookup (json_of (en_name n)) (sn_meta snap) = Some (meta_of len_of dig_of (en_version n) (CTargets (en_file_doc n))).
  Proof.
    intro Hn. unfold snap, tree_snapshot. cbn [sn_meta]. apply lookup_write_all_in.
    - rewrite map_map. cbn [fst]. eapply NoDup_map_from; [exact ND|]. intros x y _ _ E. apply json_of_inj, E.
    - apply (in_map (fun n => (json_of (en_name n), meta_of len_of dig_of (en_version n) (CTargets (en_file_doc n))))), Hn.
  Qed.

  Lemma sn_targets : lookup name_targets (sn_meta snap) = Some (meta_of len_of dig_of (e_tv e) (CTargets doc)).
  Proof.
    unfold snap, tree_snapshot. cbn [sn_meta]. rewrite lookup_write_all_other; [apply lookup_head|].
    rewrite map_map. cbn [fst]. intro Hin. apply in_map_iff in Hin as (n & E & Hn).
    apply (json_of_inj _ name_targets_role) in E. pose proof (Hnotop n Hn) as Ht. rewrite E in Ht. discriminate Ht.
  Qed.

  Lemma sn_only k m : lookup k (sn_meta snap) = Some m ->
    k = name_targets \/ exists n, In n (all_roles ch) /\ k = json_of (en_name n).
  Proof.
    intro H. unfold snap, tree_snapshot in H. cbn [sn_meta] in H. apply lookup_write_all_inv in H as [Hin|Hb].
    - right. rewrite map_map in Hin. cbn [fst] in Hin. apply in_map_iff in Hin as (n & E & Hn). eauto.
    - left. cbn [lookup] in Hb. destruct (bytes_eqb k name_targets) eqn:E; [|discriminate]. apply bytes_eqb_eq, E.
  Qed.
End Written.

Lemma count_distinct_valid table keyids ks : forall seen,
  NoDup ks -> (forall k, In k ks -> memN k keyids = true /\ memN k table = true /\ ~ In k seen) ->
  count_distinct table keyids seen (map (fun k => {| s_claim := k; s_by := k; s_ok := true |}) ks)
  = N.of_nat (length ks).
Proof.
  induction ks as [|k ks IH]; intros seen Hnd Hall; [reflexivity|].
  cbn [map count_distinct s_claim]. inversion Hnd as [|? ? Hk Hnd']; subst.
  destruct (Hall k (or_introl eq_refl)) as (Hm & Ht & Hs).
  unfold sig_valid. cbn [s_claim s_by s_ok]. rewrite Hm, Ht, N.eqb_refl. cbn [andb].
  assert (memN k seen = false) as -> by (apply memN_false; exact Hs).
  rewrite IH; [cbn [length]; lia|exact Hnd'|].
  intros x Hx. destruct (Hall x (or_intror Hx)) as (A & B & Cc).
  split; [exact A|split; [exact B|]]. intros [E|E]; [subst; contradiction|contradiction].
Qed.

Lemma signed_role_inv r role keys sigs : signed_role r role keys = Some sigs ->
  exists rk, find_role role (r_roles r) = Some rk /\ sigs = sign_with (rk_keyids rk) keys
             /\ rk_threshold rk <= N.of_nat (length sigs).
Proof.
  unfold signed_role. intro H. destruct (find_role role (r_roles r)) as [rk|]; [|discriminate]. exists rk.
  destruct (rk_threshold rk <=? N.of_nat (length (sign_with (rk_keyids rk) keys))) eqn:E; [|discriminate].
  injection H as <-. split; [reflexivity|]. split; [reflexivity|]. apply N.leb_le, E.
Qed.

Lemma signed_role_verifies r role keys sigs :
  signed_role r role keys = Some sigs -> NoDup keys -> (forall k, In k keys -> memN k (r_keys r) = true) ->
  root_verify r role sigs = true.
Proof.
  intros H Hnd Ht. destruct (signed_role_inv _ _ _ _ H) as (rk & F & -> & T). unfold root_verify. rewrite F.
  unfold verify_distinct, sign_with in *. rewrite count_distinct_valid.
  - rewrite map_length in T. apply N.leb_le, T.
  - apply NoDup_filter, Hnd.
  - intros k Hk. apply filter_In in Hk as [Hk Hm]. split; [exact Hm|split; [apply Ht, Hk|intros []]].
Qed.

Lemma checked_all top l : forallb (role_checked top) l = true ->
  forall n, In n l ->
    mem_bytes (en_name n) top_role_names = false
    /\ exists dk sibs, parent_in (en_name n) top = Some (dk, sibs)
                       /\ deleg_verify fixed dk (hdrs_of sibs) (en_name n) (en_sigs n) = true.
Proof.
  intros H n Hn. rewrite forallb_forall in H. specialize (H n Hn). unfold role_checked in H.
  apply andb_true_iff in H as [H1 H2]. split; [destruct (mem_bytes (en_name n) top_role_names); [discriminate|reflexivity]|].
  destruct (parent_in (en_name n) top) as [[dk sibs]|]; [|discriminate]. eauto.
Qed.

Lemma nodup_bytes_NoDup l : nodup_bytes l = true -> NoDup l.
Proof.
  induction l as [|x l IH]; cbn [nodup_bytes]; intro H; [constructor|].
  apply andb_true_iff in H as [H1 H2]. constructor; [|apply IH, H2].
  intro Hin. apply mem_bytes_In in Hin. rewrite Hin in H1. discriminate.
Qed.

Section RoundTripTree.
  Variable len_of : content -> N.
  Variable dig_of : content -> N.

  Lemma ed_sign_tree_inv r e dkeys ch keys tg sn ts srv :
    ed_sign_tree len_of dig_of r e dkeys ch keys = Some (tg, sn, ts, srv) ->
    exists st ss sts,
      (signed_role r 2 keys = Some st /\ signed_role r 1 keys = Some ss /\ signed_role r 3 keys = Some sts)
      /\ (NoDup (map en_name (all_roles ch))
          /\ forallb (role_checked (top_node e dkeys ch)) (all_roles ch) = true
          /\ validate tg = true)
      /\ tg = top_loaded e dkeys ch st
      /\ sn = tree_snapshot len_of dig_of e (top_file_doc e dkeys ch st) ch ss
      /\ ts = ed_timestamp len_of dig_of e sn sts
      /\ srv = tree_files len_of dig_of (r_cs r) e (top_file_doc e dkeys ch st) sn ts ch.
  Proof.
    intro Hs. unfold ed_sign_tree, ed_sign_tree_gen in Hs.
    destruct (signed_role r 2 keys) as [st|]; [|discriminate].
    destruct (signed_role r 1 keys) as [ss|]; [|discriminate].
    destruct (signed_role r 3 keys) as [sts|]; [|discriminate]. cbn [negb orb] in Hs.
    destruct (nodup_bytes (map en_name (all_roles ch))) eqn:Hnd; [|discriminate]. cbn [andb] in Hs.
    destruct (forallb (role_checked (top_node e dkeys ch)) (all_roles ch)) eqn:Hchk; [|discriminate].
    destruct (validate (top_loaded e dkeys ch st)) eqn:Hval; [|discriminate].
    injection Hs as <- <- <- <-. exists st, ss, sts. apply nodup_bytes_NoDup in Hnd. repeat split; assumption.
  Qed.

  Theorem tree_meta_exact (r : root) (e : edit) (dkeys : list N) (ch : list enode) (keys : list N) tg sn ts srv :
    ed_sign_tree len_of dig_of r e dkeys ch keys = Some (tg, sn, ts, srv) ->
    Forall (fun n => small (en_name n)) (all_roles ch) ->
    let doc := top_file_doc e dkeys ch (tg_sigs tg) in
    tg = top_loaded e dkeys ch (tg_sigs tg)
    /\ lookup name_targets (sn_meta sn)
       = Some (meta_of len_of dig_of (e_tv e) (CTargets doc))
    /\ lookup (versioned (r_cs r) (e_tv e) name_targets) srv = Some (Served (mkfile len_of dig_of (CTargets doc)))
    /\ (forall n, In n (all_roles ch) ->
          lookup (json_of (en_name n)) (sn_meta sn)
          = Some (meta_of len_of dig_of (en_version n) (CTargets (en_file_doc n)))
          /\ lookup (role_filename (r_cs r) (en_version n) (en_name n)) srv
             = Some (Served (mkfile len_of dig_of (CTargets (en_file_doc n)))))
    /\ (forall k m, lookup k (sn_meta sn) = Some m ->
          k = name_targets \/ exists n, In n (all_roles ch) /\ k = json_of (en_name n))
    /\ ts_meta ts = [(name_snapshot, meta_of len_of dig_of (sn_version sn) (CSnap sn))]
    /\ lookup (versioned (r_cs r) (sn_version sn) name_snapshot) srv = Some (Served (mkfile len_of dig_of (CSnap sn)))
    /\ lookup name_timestamp srv = Some (Served (mkfile len_of dig_of (CTs ts)))
    /\ sn_version sn = e_sv e /\ ts_version ts = e_tsv e /\ sn_expires sn = e_sexp e /\ ts_expires ts = e_tsexp e.
  Proof.
    intros Hs Hsm doc.
    destruct (ed_sign_tree_inv _ _ _ _ _ _ _ _ _ Hs) as (st & ss & sts & _ & (NDn & Hchk & _) & -> & -> & -> & ->).
    assert (Hnotop : forall n, In n (all_roles ch) -> mem_bytes (en_name n) top_role_names = false)
      by (intros n Hn; apply (checked_all _ _ Hchk n Hn)).
    subst doc. cbn [tg_sigs top_loaded].
    split; [reflexivity|]. split; [apply sn_targets, Hnotop|]. split; [apply srv_targets; assumption|].
    split; [intros n Hn; split; [apply sn_role|apply srv_role]; assumption|].
    split; [apply sn_only|]. split; [reflexivity|].
    split; [apply srv_snapshot; assumption|]. split; [apply srv_timestamp; assumption|]. repeat split.
  Qed.

  Theorem editor_client_roundtrip_tree (r : root) (e : edit) (dkeys : list N) (ch : list enode) (keys : list N)
          (cfg : config) (now : Z) tg sn ts srv :
    ed_sign_tree len_of dig_of r e dkeys ch keys = Some (tg, sn, ts, srv) ->
    root_verify r 0 (r_sigs r) = true ->
    NoDup keys -> (forall k, In k keys -> memN k (r_keys r) = true) ->
    (* role names (pairwise distinct, or sign would have refused) *)
    Forall (fun n => small (en_name n)) (all_roles ch) ->
    (r_cs r = false -> ~ In (next_root_role r) (map en_name (all_roles ch))) ->
    (* client configuration; the timestamp is the one file whose length nothing pins *)
    r_version r < update_limit fixed (r_version r) (c_max_root_updates cfg) ->
    (tree_depth ch <= c_fuel cfg)%nat ->
    len_of (CTs ts) <= c_max_timestamp_size cfg ->
    (now <= r_expires r)%Z -> (now <= e_tsexp e)%Z -> (now <= e_sexp e)%Z -> (now <= e_texp e)%Z ->
    exists w,
      run_cycle fixed {| cy_cfg := cfg; cy_shipped := CRoot r; cy_srv := srv; cy_now := now; cy_fault := None |} store0
      = (Ok {| rp_root := r; rp_ts := ts; rp_snap := sn; rp_targets := tg |}, w).
  Proof.
    intros Hs Vr Hnd Hkt Hsm Hnr Hlim Hfuel Hlen Er Ets Esn Etg.
    (* the files and the snapshot, about [sn], [ts] and [srv] as they stand *)
    destruct (tree_meta_exact _ _ _ _ _ _ _ _ _ Hs Hsm) as (_ & Mtg & Ltg & Hroles & _ & Mts & Lsn & Lts & _).
    destruct (ed_sign_tree_inv _ _ _ _ _ _ _ _ _ Hs)
      as (st & ss & sts & (S2 & S1 & S3) & (NDn & Hchk & Hval) & -> & Esn' & Ets' & Esrv).
    cbn [tg_sigs top_loaded] in Mtg, Ltg.
    pose proof (checked_all _ _ Hchk) as Hall.
    assert (Hnotop : forall n, In n (all_roles ch) -> mem_bytes (en_name n) top_role_names = false)
      by (intros n Hn; apply (Hall n Hn)).
    set (doc := top_file_doc e dkeys ch st) in *.
    set (c := {| cy_cfg := cfg; cy_shipped := CRoot r; cy_srv := srv; cy_now := now; cy_fault := None |}).
    assert (Hroot : final_root fixed c = Some r).
    { apply final_root_stays; [exact Vr|exact Hlim|unfold tree_depth in Hfuel; clear -Hfuel; lia|].
      rewrite Esrv. apply srv_no_next_root; assumption. }
    assert (Hts : ts_accepted cfg r srv now store0 ts).
    { split; [|split; [|split]].
      - exists (mkfile len_of dig_of (CTs ts)). split; [|reflexivity].
        apply fetch_mkfile; [exact Lts|exact Hlen|left; reflexivity].
      - rewrite Ets'. exact (signed_role_verifies _ _ _ _ S3 Hnd Hkt).
      - intros old Ho. discriminate.
      - intros _. rewrite Ets'. exact Ets. }
    assert (Hsn : snap_accepted cfg r ts srv now store0 sn).
    { split; [|split; [|split]].
      - eexists _, (mkfile len_of dig_of (CSnap sn)). split; [rewrite Mts; apply lookup_head|].
        cbn [m_version m_length m_hash opt_default].
        split; [apply fetch_pinned, Lsn|]. split; reflexivity.
      - rewrite Esn'. exact (signed_role_verifies _ _ _ _ S1 Hnd Hkt).
      - intros old Ho. discriminate.
      - intros _. rewrite Esn'. exact Esn. }
    assert (Htg : tgt_accepted cfg r sn srv now store0 doc).
    { split; [|split; [|split]].
      - eexists _, (mkfile len_of dig_of (CTargets doc)). split; [exact Mtg|].
        cbn [m_version m_length m_hash opt_default].
        split; [apply fetch_pinned, Ltg|]. split; reflexivity.
      - exact (signed_role_verifies _ _ _ _ S2 Hnd Hkt).
      - intros old Ho. discriminate.
      - intros _. exact Etg. }
    assert (Htree : tgt_tree cfg srv sn (r_cs r) doc (top_loaded e dkeys ch st)).
    { right. split; [reflexivity|]. exists (loaded_roles ch). split; [reflexivity|].
      apply (build len_of dig_of cfg srv sn (r_cs r) (top_node e dkeys ch)).
      - (* every role verifies under the role that delegates to it, which is the one parent_in found for its name *)
        intros q Hq k Hk. pose proof (child_in_flat _ q k Hq Hk) as Hkin.
        destruct (Hall k Hkin) as (_ & dk & sibs & Hp & Hv). destruct (Hroles k Hkin) as [Hm Hl].
        rewrite (parent_in_tree (top_node e dkeys ch) NDn q k Hq Hk) in Hp. injection Hp as <- <-.
        split; [exact Hv|]. split; [exact Hm|apply fetch_pinned, Hl].
      - exact Hfuel.
      - exact NDn.
      - intros n Hn Hin. apply mem_bytes_In in Hin. exact (eq_true_false_abs _ Hin (Hnotop n Hn)). }
    exact (cycle_live c store0 r ts sn doc _ eq_refl eq_refl Hroot (fun _ => Er) Hts Hsn Htg Htree Hval).
  Qed.

  (* a document without delegated roles lists every target it iterates over *)
  Lemma validate_flat v e entries sigs : validate (Targets v e entries true [] [] sigs) = true.
  Proof.
    unfold validate. apply forallb_forall. intros [n i] Hin. cbn [targets_iter app] in Hin. rewrite app_nil_r in Hin.
    cbn [fst find_target]. induction entries as [|[m k] l IH]; [contradiction|]. cbn [lookup_target].
    destruct (tname_eqb n m) eqn:E; [reflexivity|]. destruct Hin as [H|H]; [|exact (IH H)].
    injection H as <- <-. unfold tname_eqb in E. rewrite !bytes_eqb_refl in E. discriminate.
  Qed.

  Lemma ed_sign_flat r e keys : ed_sign len_of dig_of r e keys = ed_sign_tree len_of dig_of r e [] [] keys.
  Proof.
    unfold ed_sign, ed_sign_tree, ed_sign_tree_gen.
    destruct (signed_role r 2 keys) as [st|], (signed_role r 1 keys), (signed_role r 3 keys); try reflexivity.
    cbn [all_roles flat_map map nodup_bytes forallb negb orb andb]. unfold top_loaded, loaded_roles. cbn [map].
    rewrite validate_flat. reflexivity.
  Qed.
End RoundTripTree.

(* Example repositories, for the non-vacuity examples and the counterexamples of Properties/C10.v.
   The first: targets delegating to A (2 of keys 4,5,6; a/STAR) and B (2 of keys 7,8,9; b/STAR),
   A delegating to C (2 of keys 10,11,12; a/c/STAR); snapshot and targets signed 2 of 3 *)
Definition x_tn (b : bytes) : tname := {| tn_raw := b; tn_resolved := b; tn_hexdigest := [] |}.
Definition x_ti (l d : N) : tinfo := {| ti_len := l; ti_digest := d; ti_hex := [] |}.
Definition x_sig (k : N) : sig := {| s_claim := k; s_by := k; s_ok := true |}.
Definition x_root (cs : bool) : root :=
  {| r_version := 1; r_expires := 1000; r_cs := cs; r_keys := [1; 2; 3; 20; 21];
     r_roles := [(0, {| rk_keyids := [1]; rk_threshold := 1 |}); (1, {| rk_keyids := [1; 20; 21]; rk_threshold := 2 |});
                 (2, {| rk_keyids := [2; 20; 21]; rk_threshold := 2 |}); (3, {| rk_keyids := [3]; rk_threshold := 1 |})];
     r_sigs := [x_sig 1] |}.
Definition x_edit : edit :=
  {| e_entries := [(x_tn [116], x_ti 5 50)]; e_tv := 7; e_sv := 8; e_tsv := 9; e_texp := 900; e_sexp := 800; e_tsexp := 700 |}.
Definition x_hdr (name : bytes) (ks : list N) (thr : N) (p : bytes) : dhdr :=
  {| dh_name := name; dh_keyids := ks; dh_threshold := thr; dh_paths := Paths [p] |}.
Definition x_C : enode :=
  ENode (x_hdr [67] [10; 11; 12] 2 [97; 47; 99; 47; 42]) 1 300 [(x_tn [97; 47; 99; 47; 121], x_ti 3 30)] [] [] [10; 11; 12].
Definition x_A : enode :=
  ENode (x_hdr [65] [4; 5; 6] 2 [97; 47; 42]) 3 500 [(x_tn [97; 47; 120], x_ti 1 10)] [10; 11; 12] [x_C] [4; 6].
Definition x_B (signers : list N) : enode :=
  ENode (x_hdr [66] [7; 8; 9] 2 [98; 47; 42]) 2 400 [(x_tn [98; 47; 122], x_ti 2 20)] [] [] signers.
Definition x_cfg : config :=
  {| c_max_root_size := 1000; c_max_targets_size := 50; c_max_timestamp_size := 1000; c_max_snapshot_size := 50;
     c_max_root_updates := 10; c_enforce := true; c_fuel := 3 |}.
Definition x_len (c : content) : N :=
  match c with
  | CTargets t => 100 + tg_version t + 10 * N.of_nat (length (tg_entries t))
  | CSnap _ => 200
  | CTs _ => 300
  | _ => 0
  end.
Definition x_cyc (cs : bool) (srv : server) : cyc :=
  {| cy_cfg := x_cfg; cy_shipped := CRoot (x_root cs); cy_srv := srv; cy_now := 100; cy_fault := None |}.

(* Two roles of one name in different branches: A (key 4; a/STAR) delegates to B (key 7; a/b/STAR; one target),
   and targets delegates to another B (key 7; b/STAR; empty). An editor that does not compare the names
   (ed_sign_tree_gen false: tough before the repair of F19) signs and writes: Targets::parent_of finds A's
   delegations for both, the second B.json replaces the first, the snapshot has one entry B.json. The client
   loads the repository, and the target of the first B is gone. *)
Definition dup_B2 : enode := ENode (x_hdr [66] [7] 1 [97; 47; 98; 47; 42]) 1 300 [(x_tn [97; 47; 98; 47; 121], x_ti 3 30)] [] [] [7].
Definition dup_A : enode := ENode (x_hdr [65] [4] 1 [97; 47; 42]) 3 500 [] [7] [dup_B2] [4].
Definition dup_B1 : enode := ENode (x_hdr [66] [7] 1 [98; 47; 42]) 1 400 [] [] [] [7].

(* File names without version prefix, root version 1, and a delegated role named 2.root ([next_root_role]): its
   file is what the client gets when it asks for the next root *)
Definition nr_role : enode := ENode (x_hdr [50; 46; 114; 111; 111; 116] [7] 1 [98; 47; 42]) 1 400 [] [] [] [7].

Ltac small_names := repeat (constructor; [repeat (constructor; [reflexivity|]); constructor|]); constructor.
Ltac nodup_names := repeat (constructor; [cbn; intuition discriminate|]); constructor.

Lemma x_keys cs : NoDup [1; 2; 3; 20] /\ forall k, In k [1; 2; 3; 20] -> memN k (r_keys (x_root cs)) = true.
Proof. split; [nodup_names|]. intros k Hk. cbn in Hk. intuition (subst; reflexivity). Qed.
