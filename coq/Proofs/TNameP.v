(* Target names and the file system of save_target (Model/TName.v, C08): clean_name yields normal components, the
   destination stays below the output directory, and running the save steps changes nothing or puts the whole verified
   content at the destination (fs_run_save). *)
From ToughV Require Import Model.Base Model.Stream Model.TName Proofs.BaseP Proofs.StreamP.

Definition no_slash (c : bytes) : Prop := ~ In 47 c.
(* a normal path component: not empty, not ".", not "..", no separator *)
Definition normal_comp (c : bytes) : Prop := is_normal c = true /\ no_slash c.

Lemma no_slash_nil : no_slash [].
Proof. intros []. Qed.

Lemma no_slash_app a b : no_slash a -> no_slash b -> no_slash (a ++ b).
Proof. intros Ha Hb H. apply in_app_or in H as [H|H]; [exact (Ha H)|exact (Hb H)]. Qed.

Lemma no_slash_rev a : no_slash a -> no_slash (rev a).
Proof. intros Ha H. apply in_rev in H. exact (Ha H). Qed.

Lemma normal_no_slash l : Forall normal_comp l -> Forall no_slash l.
Proof. apply Forall_impl. intros c [_ H]. exact H. Qed.

Lemma is_normal_head a t : a <> 46 -> is_normal (a :: t) = true.
Proof.
  intros H. apply N.eqb_neq in H. unfold is_normal, is_dot, is_dotdot. cbn [is_empty bytes_eqb].
  rewrite H. reflexivity.
Qed.

Lemma split_slash_sep cur s : split_slash cur (47 :: s) = rev cur :: split_slash [] s.
Proof. reflexivity. Qed.

Lemma split_slash_nonnil s : forall cur, split_slash cur s <> [].
Proof.
  induction s as [|c r IH]; intros cur; cbn [split_slash]; [discriminate|].
  destruct (c =? 47); [discriminate | apply IH].
Qed.

Lemma split_slash_chars (P : byte -> bool) s : forall cur,
  forallb (forallb P) (split_slash cur s) = forallb P cur && forallb (fun c => P c || (c =? 47)) s.
Proof.
  induction s as [|c r IH]; intros cur; cbn [split_slash forallb].
  - rewrite forallb_rev. reflexivity.
  - destruct (c =? 47) eqn:E.
    + cbn [forallb]. rewrite forallb_rev, IH. cbn [forallb]. rewrite orb_true_r. reflexivity.
    + rewrite IH. cbn [forallb]. rewrite orb_false_r.
      destruct (P c), (forallb P cur); reflexivity.
Qed.

Lemma split_slash_no_slash s : forall cur, no_slash cur -> Forall no_slash (split_slash cur s).
Proof.
  induction s as [|c r IH]; intros cur Hc; cbn [split_slash].
  - constructor; [apply no_slash_rev, Hc|constructor].
  - destruct (c =? 47) eqn:E.
    + constructor; [apply no_slash_rev, Hc|apply IH, no_slash_nil].
    + apply IH. intros [H|H]; [apply N.eqb_neq in E; congruence|exact (Hc H)].
Qed.

Lemma split_slash_app c : no_slash c -> forall cur rest,
  split_slash cur (c ++ rest) = split_slash (rev c ++ cur) rest.
Proof.
  induction c as [|x c IH]; intros Hc cur rest; [reflexivity|].
  cbn [app split_slash]. assert (x =? 47 = false) as ->.
  { apply N.eqb_neq. intro E. apply Hc. left. exact E. }
  rewrite IH; [|intro H; apply Hc; right; exact H]. cbn [rev]. rewrite <- app_assoc. reflexivity.
Qed.

Lemma split_slash_one_comp s : no_slash s -> split_slash [] s = [s].
Proof.
  intros H. rewrite <- (app_nil_r s) at 1. rewrite (split_slash_app s H). cbn [split_slash].
  rewrite app_nil_r, rev_involutive. reflexivity.
Qed.

Lemma join_slash_cons c d r : join_slash (c :: d :: r) = c ++ 47 :: join_slash (d :: r).
Proof. reflexivity. Qed.

Lemma split_join stack : stack <> [] -> Forall no_slash stack -> split_slash [] (join_slash stack) = stack.
Proof.
  induction stack as [|c [|d r] IH]; intros Hne Hs; [contradiction| |]; apply Forall_cons_iff in Hs as [Hc Hr].
  - apply split_slash_one_comp, Hc.
  - rewrite join_slash_cons, (split_slash_app c Hc), split_slash_sep, app_nil_r, rev_involutive, IH by (discriminate || exact Hr).
    reflexivity.
Qed.

Lemma join_split f : forall cur, join_slash (split_slash cur f) = rev cur ++ f.
Proof.
  induction f as [|c r IH]; intros cur; cbn [split_slash].
  - cbn [join_slash]. rewrite app_nil_r. reflexivity.
  - destruct (c =? 47) eqn:E.
    + apply N.eqb_eq in E. subst c.
      destruct (split_slash [] r) as [|x l] eqn:Es; [exfalso; exact (split_slash_nonnil r [] Es)|].
      rewrite join_slash_cons, <- Es, IH. reflexivity.
    + rewrite IH. cbn [rev]. rewrite <- app_assoc. reflexivity.
Qed.

Lemma split_slash_inj f1 f2 : split_slash [] f1 = split_slash [] f2 -> f1 = f2.
Proof. intros H. pose proof (join_split f1 []) as E. rewrite H, join_split in E. symmetry. exact E. Qed.

Lemma join_prefixed p c r : p ++ join_slash (c :: r) = join_slash ((p ++ c) :: r).
Proof. destruct r; cbn [join_slash]; [reflexivity|apply app_assoc]. Qed.

Lemma normalize_incl c comps : forall stack,
  In c (normalize stack comps) -> In c stack \/ In c comps /\ is_normal c = true.
Proof.
  induction comps as [|x r IH]; intros stack H; cbn [normalize] in H; [left; apply in_rev, H|].
  assert (W : In c r /\ is_normal c = true -> In c (x :: r) /\ is_normal c = true)
    by (intros [Hr N]; split; [right; exact Hr|exact N]).
  destruct (is_empty x || is_dot x) eqn:E1; [|destruct (is_dotdot x) eqn:E2]; apply IH in H as [H|H]; auto.
  - left. destruct stack; [destruct H|right; exact H].
  - destruct H as [<-|H]; [right; split; [left; reflexivity|]|left; exact H].
    unfold is_normal. rewrite E1, E2. reflexivity.
Qed.

(* C08: a name that is accepted resolves to a non-empty sequence of normal components, each of them
   a component of the name, rooted if the name is; it is never "" or "/" *)
Lemma clean_name_normal name r : clean_name name = inr r ->
  exists stack,
    r = (if match name with c :: _ => c =? 47 | [] => false end then [47] else []) ++ join_slash stack
    /\ stack <> [] /\ Forall normal_comp stack /\ incl stack (split_slash [] name).
Proof.
  unfold clean_name. intro H.
  destruct (is_dotdot name); [discriminate|]. destruct (is_empty name); [discriminate|].
  set (absolute := match name with c :: _ => c =? 47 | [] => false end) in *.
  set (stack := normalize [] (split_slash [] name)) in *.
  destruct (is_empty ((if absolute then [47] else []) ++ join_slash stack)) eqn:E1; [discriminate|].
  destruct (bytes_eqb ((if absolute then [47] else []) ++ join_slash stack) [47]) eqn:E2; [discriminate|].
  injection H as <-. exists stack. split; [reflexivity|].
  assert (Hin : forall c, In c stack -> In c (split_slash [] name) /\ is_normal c = true).
  { intros c Hc. apply normalize_incl in Hc as [[]|Hc]. exact Hc. }
  split; [|split].
  - intro Hn. rewrite Hn in E1, E2. destruct absolute; discriminate.
  - apply Forall_forall. intros c Hc. apply Hin in Hc as [Hc Hn]. split; [exact Hn|].
    pose proof (split_slash_no_slash name [] no_slash_nil) as Hs. rewrite Forall_forall in Hs. exact (Hs c Hc).
  - intros c Hc. apply Hin, Hc.
Qed.

Lemma std_components_slash s : std_components (47 :: s) = std_components s.
Proof. reflexivity. Qed.

Lemma std_components_join stack : stack <> [] -> Forall normal_comp stack ->
  std_components (join_slash stack) = stack.
Proof.
  intros Hne Hs. unfold std_components. rewrite (split_join stack Hne (normal_no_slash stack Hs)).
  apply filter_id, forallb_forall. rewrite Forall_forall in Hs. intros c Hc. destruct (Hs c Hc) as [Hn _].
  unfold is_normal in Hn. apply negb_true_iff, orb_false_iff in Hn as [Hn _]. rewrite Hn. reflexivity.
Qed.

Lemma list_prefix_app a : forall b, list_prefix a b = true -> exists c, b = a ++ c.
Proof.
  induction a as [|x a IH]; intros b H; [exists b; reflexivity|].
  destruct b as [|y b]; [discriminate|]. cbn [list_prefix] in H. apply andb_true_iff in H as [E H].
  apply bytes_eqb_eq in E. subst y. destruct (IH b H) as [c ->]. exists c. reflexivity.
Qed.

(* a destination that passes the path check is Path::join of the file name on outdir and lies strictly inside
   outdir *)
Lemma save_path_inv outdir fname dest : save_path outdir fname = inr dest ->
  dest = (if match fname with c :: _ => c =? 47 | [] => false end
          then std_components fname else outdir ++ std_components fname)
  /\ exists mid lastc, dest = outdir ++ mid ++ [lastc].
Proof.
  unfold save_path.
  set (full := if match fname with c :: _ => c =? 47 | [] => false end
               then std_components fname else outdir ++ std_components fname).
  destruct (rev full) as [|lastc rparent] eqn:Er; [discriminate|].
  destruct (list_prefix outdir (rev rparent)) eqn:Ep; [|discriminate].
  intros H. injection H as <-. split; [reflexivity|].
  destruct (list_prefix_app _ _ Ep) as [mid Hm]. exists mid, lastc.
  rewrite <- (rev_involutive full), Er. cbn [rev]. rewrite Hm. symmetry. apply app_assoc.
Qed.

Definition files_unchanged (f g : fsys) : Prop := fs_files g = fs_files f.

(* the files change at the rename only, which is the last step and is there only for a stream without error *)
Lemma fs_run_writes dest s : forall k f t, fs_tmp f = Some t ->
  fs_files (fold_left fs_apply (firstn k (writes dest s)) f)
  = if snd (consume s) && (length (writes dest s) <=? k)%nat
    then fs_put dest (t ++ chunk_bytes s) (fs_files f) else fs_files f.
Proof.
  induction s as [|it r IH]; intros k f t Ht; cbn [writes].
  - destruct k as [|k]; cbn [firstn fold_left]; [reflexivity|].
    rewrite firstn_nil. cbn [fold_left fs_apply]. rewrite Ht, app_nil_r. reflexivity.
  - (* an error item drops the temporary file; a chunk is appended to it *)
    destruct it as [b| | |];
      [|destruct k as [|k]; cbn [firstn fold_left]; [reflexivity|rewrite firstn_nil; reflexivity]..].
    destruct k as [|k]; cbn [firstn fold_left]; [rewrite andb_false_r; reflexivity|].
    cbn [fs_apply]. rewrite Ht, (IH k {| fs_files := fs_files f; fs_tmp := Some (t ++ b) |} (t ++ b) eq_refl).
    rewrite chunk_bytes_cons, app_assoc. cbn [consume]. destruct (consume r) as [d ok]. reflexivity.
Qed.

Theorem fs_run_save dest s k f :
  fs_files (fs_run f (save_steps dest s) k)
  = if snd (consume s) && (length (save_steps dest s) <=? k)%nat
    then fs_put dest (chunk_bytes s) (fs_files f) else fs_files f.
Proof.
  unfold fs_run, save_steps.
  destruct k as [|[|k]]; cbn [firstn fold_left fs_apply]; try (rewrite andb_false_r; reflexivity).
  apply (fs_run_writes dest s k {| fs_files := fs_files f; fs_tmp := Some [] |} [] eq_refl).
Qed.

Lemma paths_eqb_eq a : forall b, paths_eqb a b = true <-> a = b.
Proof.
  induction a as [|x a IH]; intros [|y b]; cbn [paths_eqb]; split; intro H; try discriminate; auto.
  - apply andb_true_iff in H as [H1 H2]. apply bytes_eqb_eq in H1. apply IH in H2. congruence.
  - injection H as <- <-. rewrite bytes_eqb_refl. apply IH. reflexivity.
Qed.

Lemma fs_get_put_same p v m : fs_get p (fs_put p v m) = Some v.
Proof.
  assert (R : paths_eqb p p = true) by (apply paths_eqb_eq; reflexivity).
  induction m as [|[q w] m IH]; cbn [fs_put fs_get]; [rewrite R; reflexivity|].
  destruct (paths_eqb p q) eqn:E; cbn [fs_get]; [rewrite R; reflexivity|rewrite E; exact IH].
Qed.

Lemma fs_get_put_other p q v m : paths_eqb p q = false -> fs_get p (fs_put q v m) = fs_get p m.
Proof.
  intro H. induction m as [|[r w] m IH]; cbn [fs_put fs_get]; [rewrite H; reflexivity|].
  destruct (paths_eqb q r) eqn:E; cbn [fs_get]; [|rewrite IH; reflexivity].
  apply paths_eqb_eq in E. subst r. rewrite H. reflexivity.
Qed.
