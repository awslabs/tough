(* The functional specification of load_delegations (model with all repairs): every delegated role that
   ends up in the loaded tree was fetched under the name its snapshot entry determines, within the entry's
   length (or the configured limit) and with the entry's digest, has the listed version, and verifies under
   the keys and threshold its delegating role gives it - at every depth. *)
From ToughV Require Import Model.Base Model.Pct Model.Sig Model.Deleg Model.Client.
From ToughV Require Import Proofs.BaseP Proofs.SigP Proofs.ClientP.

(* [lookup] of Model/Client.v is [find_assoc] of Model/Base.v under another name *)
Lemma lookup_In {V} k (m : list (bytes * V)) v : lookup k m = Some v -> In (k, v) m.
Proof. exact (find_assoc_In k m v). Qed.

Lemma lookup_some_in_keys {V} k (m : list (bytes * V)) : lookup k m <> None -> In k (map fst m).
Proof.
  induction m as [|[k' v] m IH]; cbn [lookup map fst]; [congruence|].
  destruct (bytes_eqb k k') eqn:E; [apply bytes_eqb_eq in E; subst; left; reflexivity|]. intro H. right. apply IH, H.
Qed.

Lemma assoc_insert_In {V} k (v : V) m x : In x (assoc_insert k v m) -> x = (k, v) \/ In x m.
Proof.
  induction m as [|[k' v'] m IH]; cbn [assoc_insert]; intro H.
  - destruct H as [H|[]]; auto.
  - destruct (bytes_eqb k k').
    + destruct H as [H|H]; [auto|right; right; exact H].
    + destruct H as [H|H]; [right; left; exact H|]. destruct (IH H); [auto|right; right; assumption].
Qed.

Lemma assoc_remove_In {V} k (m : list (bytes * V)) x : In x (assoc_remove k m) -> In x m.
Proof.
  induction m as [|[k' v'] m IH]; cbn [assoc_remove]; intro H; [contradiction|].
  destruct (bytes_eqb k k'); [right; exact H|]. destruct H as [H|H]; [left; exact H|right; apply IH, H].
Qed.

Lemma lookup_insert_same {V} k (v : V) m : lookup k (assoc_insert k v m) = Some v.
Proof.
  induction m as [|[k' v'] m IH]; cbn [assoc_insert lookup]; [rewrite bytes_eqb_refl; reflexivity|].
  destruct (bytes_eqb k k') eqn:E; cbn [lookup]; [rewrite bytes_eqb_refl; reflexivity|rewrite E; exact IH].
Qed.

Lemma lookup_insert_other {V} k k2 (v : V) m : k2 <> k -> lookup k2 (assoc_insert k v m) = lookup k2 m.
Proof.
  intro N. induction m as [|[k' v'] m IH]; cbn [assoc_insert lookup].
  - apply bytes_eqb_neq in N. rewrite N. reflexivity.
  - destruct (bytes_eqb k k') eqn:E; cbn [lookup].
    + apply bytes_eqb_eq in E. subst k'. apply bytes_eqb_neq in N. rewrite N. reflexivity.
    + destruct (bytes_eqb k2 k'); [reflexivity|exact IH].
Qed.

Lemma lookup_remove_other {V} k k2 (m : list (bytes * V)) : k2 <> k -> lookup k2 (assoc_remove k m) = lookup k2 m.
Proof.
  intro N. induction m as [|[k' v'] m IH]; cbn [assoc_remove lookup]; [reflexivity|].
  destruct (bytes_eqb k k') eqn:E.
  - apply bytes_eqb_eq in E. subst k'. apply bytes_eqb_neq in N. rewrite N. reflexivity.
  - cbn [lookup]. destruct (bytes_eqb k2 k'); [reflexivity|exact IH].
Qed.

Lemma json_of_inj a b : json_of a = json_of b -> a = b.
Proof. unfold json_of. apply app_inv_tail. Qed.

Lemma Forall2_in_l {A B} (P : A -> B -> Prop) l l' x : Forall2 P l l' -> In x l -> exists y, P x y.
Proof.
  induction 1 as [|a b l l' Hab Hr IH]; intros []; [subst; exists b; exact Hab|auto].
Qed.

Lemma Forall2_impl {A B} (P Q : A -> B -> Prop) l l' : (forall x y, P x y -> Q x y) -> Forall2 P l l' -> Forall2 Q l l'.
Proof. intro H. induction 1; constructor; auto. Qed.

(* Delegations::verify_role (repaired) is the C01 specification applied to the first entry of that name *)
Lemma deleg_verify_spec dkeys roles name sigs :
  deleg_verify fixed dkeys roles name sigs = true <->
  exists h, find_hdr name roles = Some h /\ spec_accept dkeys (dh_keyids h) (dh_threshold h) sigs = true.
Proof.
  unfold deleg_verify. cbn [fixed fx_deleg_distinct]. destruct (find_hdr name roles) as [h|].
  - rewrite verify_distinct_spec. split; [intro H; exists h; auto|intros (h' & [= <-] & H); exact H].
  - split; [discriminate|intros (h & E & _); discriminate].
Qed.

(* how second_loop and load_targets complete an accepted document [t0], [P] describing the list of roles it gets *)
Definition attached (P : list (dhdr * option targets) -> Prop) (t0 t : targets) : Prop :=
  (tg_has_deleg t0 = false /\ t = t0)
  \/ (tg_has_deleg t0 = true /\ exists rs', t = tg_set_roles t0 rs' /\ P rs').

Section Spec.
  Variables (cfg : config) (srv : server) (snap : snapshot) (cs : bool) (lim : N).

  Definition role_fetch_ok (dkeys : list N) (all : list (dhdr * option targets)) (name : bytes) (t0 : targets) : Prop :=
    exists m file,
      lookup (json_of name) (sn_meta snap) = Some m
      /\ fetch srv (role_filename cs (m_version m) name)
               (opt_default (m_length m) (c_max_targets_size cfg)) (m_hash m) = FOk file
      /\ f_body file = CTargets t0
      /\ deleg_verify fixed dkeys all name (tg_sigs t0) = true
      /\ tg_version t0 = m_version m.

  (* [loaded dkeys roles rs]: [rs] is the list [roles] with every role's accepted file completed in the same way,
     at every depth; the disjunction is [attached (loaded (tg_dkeys t0) (tg_roles t0)) t0 t] *)
  Inductive loaded : list N -> list (dhdr * option targets) -> list (dhdr * option targets) -> Prop :=
  | loaded_intro dkeys roles rs :
      map fst rs = map fst roles ->
      (forall h c, In (h, c) rs ->
         exists t0 t, c = Some t /\ role_fetch_ok dkeys roles (dh_name h) t0
                      /\ ((tg_has_deleg t0 = false /\ t = t0)
                          \/ (tg_has_deleg t0 = true
                              /\ exists rs', t = tg_set_roles t0 rs' /\ loaded (tg_dkeys t0) (tg_roles t0) rs'))) ->
      loaded dkeys roles rs.

  Lemma loaded_heads dkeys roles rs : loaded dkeys roles rs -> map fst rs = map fst roles.
  Proof. intros [dk rl out Hm _]. exact Hm. Qed.

  (* every role that passes the first loop is none of the ancestors and has an acceptable file: with all repairs
     [role_fetched] of Proofs/ClientP.v is, by conversion, these two facts *)
  Lemma fetch_level_spec dkeys all anc : forall todo acc w fetched w',
    fetch_level fixed cfg srv snap cs lim dkeys all todo anc acc w = (Ok fetched, w') ->
    forall name t, In (name, t) fetched ->
      In (name, t) acc \/ (mem_bytes name anc = false /\ role_fetch_ok dkeys all name t).
  Proof.
    induction todo as [|[h o] rest IH]; intros acc w fetched w' H name t Hin.
    { injection H as <- _. left. exact Hin. }
    rewrite fetch_level_cons in H. apply fetch_role_inv in H as [(c & a & [=] & _)|(t0 & w2 & Hc & _ & H)].
    destruct (IH _ _ _ _ H name t Hin) as [Hacc|Hok]; [|right; exact Hok].
    apply assoc_insert_In in Hacc as [[= -> ->]|Hacc]; [right; exact Hc|left; exact Hacc].
  Qed.

  Definition rec_spec (rec : list N -> list (dhdr * option targets) -> list bytes -> world
                             -> res (list (dhdr * option targets)) * world) : Prop :=
    forall dk rs anc w out w', rec dk rs anc w = (Ok out, w') -> loaded dk rs out.

  Lemma complete_role_spec rec anc t0 w t w1 : rec_spec rec ->
    complete_role rec anc t0 w = (Ok t, w1) -> attached (loaded (tg_dkeys t0) (tg_roles t0)) t0 t.
  Proof.
    intros Hrec H. apply complete_role_inv in H as [(Hd & [= ->] & _)|(Hd & [rs|c a] & E1 & [= ->])]; [left; auto|right].
    split; [exact Hd|]. exists rs. split; [reflexivity|exact (Hrec _ _ _ _ _ _ E1)].
  Qed.

  Lemma second_loop_spec rec dkeys all : rec_spec rec -> forall todo anc remaining w out w',
    second_loop rec anc todo remaining w = (Ok out, w') ->
    (forall name t, In (name, t) remaining -> role_fetch_ok dkeys all name t) ->
    map fst out = map fst todo
    /\ forall h c, In (h, c) out ->
         exists t0 t, c = Some t /\ role_fetch_ok dkeys all (dh_name h) t0
                      /\ attached (loaded (tg_dkeys t0) (tg_roles t0)) t0 t.
  Proof.
    intros Hrec. induction todo as [|[h o] rest IH]; intros anc remaining w out w' H Hrem.
    { injection H as <- _. split; [reflexivity|]. intros h c []. }
    rewrite second_loop_cons in H.
    destruct (lookup (dh_name h) remaining) as [t0|] eqn:Hl; [|discriminate].
    destruct (complete_role rec (anc ++ [dh_name h]) t0 w) as [[t|c a] w1] eqn:E1; [|discriminate].
    destruct (second_loop rec anc rest (assoc_remove (dh_name h) remaining) w1) as [[rs2|c a] w2] eqn:E2; [|discriminate].
    injection H as <- _. destruct (IH _ _ _ _ _ E2) as [Hm Hall].
    { intros name t' Hin. eapply Hrem, assoc_remove_In, Hin. }
    split; [cbn [map fst]; f_equal; exact Hm|].
    intros h' c' [[= <- <-]|Hin]; [|apply Hall, Hin].
    exists t0, t. split; [reflexivity|]. split; [apply Hrem, lookup_In, Hl|exact (complete_role_spec _ _ _ _ _ _ Hrec E1)].
  Qed.

  Theorem load_delegs_spec fuel : rec_spec (load_delegs fixed cfg srv snap cs lim fuel).
  Proof.
    induction fuel as [|f IH]; intros dk rs anc w out w' H; cbn [load_delegs] in H; [discriminate|].
    destruct (fetch_level fixed cfg srv snap cs lim dk rs rs anc [] w) as [[fetched|c a] w1] eqn:E; [|discriminate].
    pose proof (fetch_level_spec dk rs anc rs [] w fetched w1 E) as Hf.
    destruct (second_loop_spec _ dk rs IH rs anc fetched w1 out w' H) as [Hm Hall].
    - intros name t Hin. destruct (Hf name t Hin) as [[]|[_ Hok]]. exact Hok.
    - constructor; assumption.
  Qed.
End Spec.

Lemma attach_gives_loaded cfg srv sn cs lim t0 w t w' :
  attach fixed cfg srv sn cs lim t0 w = (Ok t, w') -> attached (loaded cfg srv sn cs (tg_dkeys t0) (tg_roles t0)) t0 t.
Proof.
  unfold attach. intro H. destruct (complete_role _ _ t0 w) as [[t'|c a] w4] eqn:E; [|discriminate].
  destruct (validate t'); [|discriminate]. injection H as <- _.
  eapply complete_role_spec; [apply load_delegs_spec|exact E].
Qed.
