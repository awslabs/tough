(* Rollback protection across update cycles sharing a datastore (C03), its survival of crashes and
   failed writes (C15: the fault of every cycle is universally quantified), and what one successful
   cycle establishes. A stored document puts a [floor] under the version of the next one; through
   ClientP.cycle_writes it is enough that no single write of a cycle lowers a floor, and one induction
   over histories does the rest. The theorems about histories are about the model with every repair in place
   ([fixed]); the histories on which they fail before two of the repairs are defined at the end. *)
From ToughV Require Import Model.Base Model.Sig Model.Deleg Model.Client.
From ToughV Require Import Proofs.SigP Proofs.ClientP.

Definition auth_eq (role : N) (r r' : root) : Prop :=
  forall sigs, root_verify r role sigs = root_verify r' role sigs.

(* the online roles (timestamp 3, snapshot 1) are authorised identically: same keys in the same
   order as step 1.9 compares them, and same verification outcome for every signature list *)
Definition online_same (r r' : root) : Prop :=
  role_keys r 3 = role_keys r' 3 /\ role_keys r 1 = role_keys r' 1 /\ auth_eq 3 r r' /\ auth_eq 1 r r'.

Lemma online_same_refl r : online_same r r.
Proof. repeat split. Qed.
Lemma online_same_sym a b : online_same a b -> online_same b a.
Proof. intros (H1 & H2 & H3 & H4). repeat split; auto; intro; symmetry; auto. Qed.
Lemma online_same_trans a b c : online_same a b -> online_same b c -> online_same a c.
Proof.
  intros (H1 & H2 & H3 & H4) (G1 & G2 & G3 & G4).
  split; [congruence|split; [congruence|split]]; intro sigs; [rewrite H3; apply G3|rewrite H4; apply G4].
Qed.

(* the keys a role can use and the signatures counted for it depend on the key table only through the presence
   of the role's key ids in it (what C03_unchanged_entry_suffices in Properties/C03.v needs of the two) *)
Lemma keys_upto_missing_ext t t' ids :
  (forall k, In k ids -> memN k t = memN k t') -> keys_upto_missing t ids = keys_upto_missing t' ids.
Proof.
  induction ids as [|k ids IH]; intro H; [reflexivity|]. cbn [keys_upto_missing].
  rewrite <- (H k (or_introl eq_refl)). destruct (memN k t); [|reflexivity].
  f_equal. apply IH. intros x Hx. apply H. right. exact Hx.
Qed.

Lemma count_distinct_ext t t' ids sigs : (forall k, In k ids -> memN k t = memN k t') ->
  forall seen, count_distinct t ids seen sigs = count_distinct t' ids seen sigs.
Proof.
  intro H. induction sigs as [|s sigs IH]; intro seen; [reflexivity|]. cbn [count_distinct].
  assert (E : memN (s_claim s) ids && sig_valid t s = memN (s_claim s) ids && sig_valid t' s).
  { destruct (memN (s_claim s) ids) eqn:M; [|reflexivity]. cbn [andb]. unfold sig_valid.
    rewrite (H _ (proj1 (memN_In _ _) M)). reflexivity. }
  rewrite E. destruct (memN (s_claim s) ids && sig_valid t' s); [|apply IH].
  destruct (memN (s_claim s) seen); [apply IH|]. rewrite IH. reflexivity.
Qed.

Lemma listN_eqb_refl l : listN_eqb l l = true.
Proof. induction l as [|x l IH]; [reflexivity|]. cbn [listN_eqb]. rewrite N.eqb_refl. exact IH. Qed.

Lemma listN_eqb_eq a : forall b, listN_eqb a b = true -> a = b.
Proof.
  induction a as [|x a IH]; intros [|y b] H; try discriminate; [reflexivity|].
  cbn [listN_eqb] in H. apply andb_true_iff in H as [E H]. apply N.eqb_eq in E. subst. f_equal. apply IH, H.
Qed.

Lemma not_rotated ref r : role_keys ref 3 = role_keys r 3 -> role_keys ref 1 = role_keys r 1 ->
  rotated ref r = false.
Proof. intros H3 H1. unfold rotated. rewrite H3, H1, !listN_eqb_refl. reflexivity. Qed.

Definition fixed_atomic : fx_atomic_store fixed = true := eq_refl.

(* what a stored document demands of the next one under the authority of root [A]: its value [val]
   (a version), provided it verifies for [role] *)
Definition floor {D} (sigs : D -> list sig) (val : D -> N) (role : N) (A : root) (o : option (stored D)) : N :=
  match o with
  | Some (SDoc d) => if root_verify A role (sigs d) then val d else 0
  | _ => 0
  end.

Lemma floor_doc {D} sigs val role A (d : D) :
  root_verify A role (sigs d) = true -> floor sigs val role A (Some (SDoc d)) = val d.
Proof. intro V. cbn. rewrite V. reflexivity. Qed.

Lemma floor_step {D} sigs val role A r (o : option (stored D)) d :
  auth_eq role A r -> root_verify r role (sigs d) = true ->
  (forall old, o = Some (SDoc old) -> root_verify r role (sigs old) = true -> val old <= val d) ->
  floor sigs val role A o <= floor sigs val role A (Some (SDoc d)).
Proof.
  intros Au V Old. rewrite (floor_doc _ _ _ _ _ (eq_trans (Au _) V)). unfold floor.
  destruct o as [[|old]|]; try apply N.le_0_l. rewrite Au.
  destruct (root_verify r role (sigs old)) eqn:Vo; [exact (Old old eq_refl Vo)|apply N.le_0_l].
Qed.

Definition listed_version (sn : snapshot) : N :=
  match lookup name_targets (sn_meta sn) with Some m => m_version m | None => 0 end.

Lemma rollback_ok_listed old sn : snap_rollback_ok old sn -> listed_version old <= listed_version sn.
Proof.
  intros [_ H]. unfold listed_version. destruct (lookup name_targets (sn_meta old)) as [om|]; [|apply N.le_0_l].
  destruct (H om eq_refl) as (nm & -> & Hle). exact Hle.
Qed.

Definition online_le (A : root) (s s' : store) : Prop :=
  floor ts_sigs ts_version 3 A (st_ts s) <= floor ts_sigs ts_version 3 A (st_ts s')
  /\ floor sn_sigs sn_version 1 A (st_snap s) <= floor sn_sigs sn_version 1 A (st_snap s')
  /\ floor sn_sigs listed_version 1 A (st_snap s) <= floor sn_sigs listed_version 1 A (st_snap s').

Lemma online_le_trans A a b c : online_le A a b -> online_le A b c -> online_le A a c.
Proof.
  intros (T1 & S1 & L1) (T2 & S2 & L2).
  split; [exact (N.le_trans _ _ _ T1 T2)|]. split; [exact (N.le_trans _ _ _ S1 S2)|exact (N.le_trans _ _ _ L1 L2)].
Qed.

Definition InvA (A : root) (s : store) : Prop :=
  exists pr, st_root s = Some (SDoc pr) /\ online_same A pr.

(* a move of the datastore that does no harm to the online roles' protection under [A]; the preorder that
   cycle_writes carries through a cycle *)
Definition safe_step (A : root) (s s' : store) : Prop :=
  InvA A s -> InvA A s' /\ online_le A s s'.

Lemma safe_step_trans A a b c : safe_step A a b -> safe_step A b c -> safe_step A a c.
Proof.
  intros H1 H2 I. destruct (H1 I) as [I1 L1]. destruct (H2 I1) as [I2 L2].
  split; [exact I2|exact (online_le_trans _ _ _ _ L1 L2)].
Qed.

Lemma safe_step_same A s s' :
  st_root s = st_root s' -> st_ts s = st_ts s' -> st_snap s = st_snap s' -> safe_step A s s'.
Proof.
  intros R T S (pr & Hp & Ho). split; [exists pr; rewrite <- R; auto|].
  unfold online_le. rewrite T, S. repeat split; apply N.le_refl.
Qed.

Lemma safe_step_ts A cfg r srv now s d : online_same A r -> ts_accepted cfg r srv now s d ->
  safe_step A s (upd_ts (Some (SDoc d)) s).
Proof.
  intros (_ & _ & A3 & _) (_ & V & Old & _) Inv. split; [exact Inv|].
  split; [exact (floor_step _ _ _ _ r _ _ A3 V Old)|split; apply N.le_refl].
Qed.

Lemma safe_step_snap A cfg r ts srv now s d : online_same A r -> snap_accepted cfg r ts srv now s d ->
  safe_step A s (upd_snap (Some (SDoc d)) s).
Proof.
  intros (_ & _ & _ & A1) (_ & V & Old & _) Inv. split; [exact Inv|]. split; [apply N.le_refl|].
  split; apply (floor_step _ _ _ _ r _ _ A1 V); intros old Eo Vo.
  - apply (Old old Eo Vo).
  - apply rollback_ok_listed, (Old old Eo Vo).
Qed.

(* one cycle, successful or not, interrupted or not, under unchanged online authorisation: no rotation is
   seen in step 1.9, so nothing is removed, and steps 2 and 3 replace a document only by one that their
   rollback checks, made under the same authorisation, let through *)
Lemma cycle_online A c s res w' :
  (forall r, final_root fixed c = Some r -> online_same A r) ->
  run_cycle fixed c s = (res, w') -> InvA A s -> InvA A (w_store w') /\ online_le A s (w_store w').
Proof.
  intros Hfin H Inv. apply (cycle_writes (safe_step A) fixed c s fixed_atomic) in H; [exact (H Inv)|..].
  - (* reflexive *) intro a. apply safe_step_same; reflexivity.
  - (* transitive *) apply safe_step_trans.
  - (* clock *) intro a. apply safe_step_same; reflexivity.
  - (* name of a delegated-role file *) intros n a. apply safe_step_same; reflexivity.
  - (* removal on rotation *) intros r0 r a b _ Hfr Hrot _. exfalso.
    destruct Inv as (pr & Hp & P3 & P1 & _). destruct (Hfin r Hfr) as (F3 & F1 & _).
    unfold reference_root in Hrot. cbn [fixed fx_prev_root] in Hrot. rewrite Hp, not_rotated in Hrot; [discriminate|congruence..].
  - (* root *) intros r a Hfr _. split; [exists r; split; [reflexivity|exact (Hfin r Hfr)]|]. repeat split; apply N.le_refl.
  - (* timestamp *) intros r a d Hfr Acc. exact (safe_step_ts _ _ _ _ _ _ _ (Hfin r Hfr) Acc).
  - (* snapshot *) intros r ts a d Hfr Acc. exact (safe_step_snap _ _ _ _ _ _ _ _ (Hfin r Hfr) Acc).
  - (* targets *) intros r sn a d _ _. apply safe_step_same; reflexivity.
Qed.

Lemma cycle_ok_recorded c s rp w' :
  run_cycle fixed c s = (Ok rp, w') ->
  st_root (w_store w') = Some (SDoc (rp_root rp))
  /\ st_ts (w_store w') = Some (SDoc (rp_ts rp))
  /\ st_snap (w_store w') = Some (SDoc (rp_snap rp))
  /\ root_verify (rp_root rp) 3 (ts_sigs (rp_ts rp)) = true
  /\ root_verify (rp_root rp) 1 (sn_sigs (rp_snap rp)) = true
  /\ final_root fixed c = Some (rp_root rp)
  /\ exists t0, st_tgt (w_store w') = Some (SDoc t0) /\ root_verify (rp_root rp) 2 (tg_sigs t0) = true
                /\ tg_version t0 = tg_version (rp_targets rp).
Proof.
  intro H. apply run_cycle_ok_inv in H as (r0 & w0 & w1 & w2 & w3 & Hs & V0 & Ew & Ef & Et & Es & Eg).
  pose proof (final_root_of_walk _ _ _ _ _ _ Hs V0 Ew) as Hfr.
  (* step 1 recorded the root; each later step wrote its document over a store with the documents the step
     before left *)
  apply finish_root_ok in Ef as (_ & _ & _ & E1). specialize (E1 eq_refl).
  apply load_timestamp_ok in Et as ((_ & Vts & _) & sa & Ta & E2). apply timed_same_docs in Ta as (Ra & _).
  apply load_snapshot_ok in Es as ((_ & Vsn & _) & sb & Tb & E3). apply timed_same_docs in Tb as (Rb & Tb & _).
  apply load_targets_ok in Eg as (m & t0 & sc & wc & _ & (_ & Vt0 & _) & Tc & E4 & K).
  apply timed_same_docs in Tc as (Rc & Tc & Sc & _).
  pose proof (attach_frame _ _ _ _ _ _ same_docs _ _ _ _ same_docs_refl same_docs_trans add_other_same_docs K)
    as (Rd & Td & Sd & Gd).
  apply attach_ok in K as [Lf _].
  rewrite <- Rd, <- Td, <- Sd, <- Gd, E4. cbn [upd_tgt st_root st_ts st_snap st_tgt].
  rewrite <- Rc, <- Tc, <- Sc, E3. cbn [upd_snap st_root st_ts st_snap].
  rewrite <- Rb, <- Tb, E2. cbn [upd_ts st_root st_ts]. rewrite <- Ra, E1.
  repeat split; auto.
  exists t0. repeat split; auto. destruct Lf as [->|(rs & ->)]; [reflexivity|].
  rewrite tg_set_roles_version. reflexivity.
Qed.

Lemma cycle_ok_floors A c s rp w' : run_cycle fixed c s = (Ok rp, w') -> online_same A (rp_root rp) ->
  floor ts_sigs ts_version 3 A (st_ts (w_store w')) = ts_version (rp_ts rp)
  /\ floor sn_sigs sn_version 1 A (st_snap (w_store w')) = sn_version (rp_snap rp)
  /\ floor sn_sigs listed_version 1 A (st_snap (w_store w')) = listed_version (rp_snap rp).
Proof.
  intros H (_ & _ & A3 & A1). destruct (cycle_ok_recorded _ _ _ _ H) as (_ & -> & -> & Vt & Vs & _).
  rewrite <- A3 in Vt. rewrite <- A1 in Vs. repeat split; apply floor_doc; assumption.
Qed.

(* histories: an invariant of the datastore and a preorder on datastores that every cycle satisfying
   [good] maintains hold between any two points of a history whose cycles in between are [good] *)
Lemma run_hist_nth_S fx c rest s k :
  nth_error (run_hist fx (c :: rest) s) (S k)
  = nth_error (run_hist fx rest (w_store (snd (run_cycle fx c s)))) k.
Proof. reflexivity. Qed.

Lemma run_hist_nth fx : forall h s k rw, nth_error (run_hist fx h s) k = Some rw ->
  exists c s', nth_error h k = Some c /\ run_cycle fx c s' = rw.
Proof.
  induction h as [|c rest IH]; intros s k rw H; [destruct k; discriminate|]. destruct k as [|k].
  - injection H as <-. exists c, s. split; reflexivity.
  - rewrite run_hist_nth_S in H. apply IH in H. exact H.
Qed.

Section History.
  Variables (Inv : store -> Prop) (good : cyc -> Prop) (le : store -> store -> Prop).
  Hypothesis le_trans : forall a b c, le a b -> le b c -> le a c.
  Hypothesis step : forall c s res w', good c -> run_cycle fixed c s = (res, w') -> Inv s ->
                                       Inv (w_store w') /\ le s (w_store w').

  Lemma later : forall h s k rw, Inv s ->
    (forall k' c, (k' <= k)%nat -> nth_error h k' = Some c -> good c) ->
    nth_error (run_hist fixed h s) k = Some rw -> Inv (w_store (snd rw)) /\ le s (w_store (snd rw)).
  Proof.
    induction h as [|c rest IH]; intros s k rw I Hall Hk; [destruct k; discriminate|].
    destruct (run_cycle fixed c s) as [res w1] eqn:E.
    destruct (step c s res w1 (Hall 0%nat c (Nat.le_0_l k) eq_refl) E I) as [I1 L1].
    destruct k as [|k].
    - cbn [run_hist nth_error] in Hk. rewrite E in Hk. injection Hk as <-. auto.
    - rewrite run_hist_nth_S, E in Hk.
      destruct (IH (w_store w1) k rw I1) as [I2 L2]; [|exact Hk|split; [exact I2|exact (le_trans _ _ _ L1 L2)]].
      intros k' c' Hle Hn. apply (Hall (S k') c'); [apply le_n_S, Hle|exact Hn].
  Qed.

  Lemma between : forall h s0 i j rw_i rw_j, (i < j)%nat ->
    nth_error (run_hist fixed h s0) i = Some rw_i -> nth_error (run_hist fixed h s0) j = Some rw_j ->
    Inv (w_store (snd rw_i)) ->
    (forall k c, (i < k <= j)%nat -> nth_error h k = Some c -> good c) ->
    le (w_store (snd rw_i)) (w_store (snd rw_j)).
  Proof.
    induction h as [|c rest IH]; intros s0 i j rw_i rw_j Hij Hi Hj I Hall; [destruct i; discriminate|].
    destruct j as [|j]; [inversion Hij|]. rewrite run_hist_nth_S in Hj. destruct i as [|i].
    - injection Hi as <-. apply (later rest _ j rw_j I); [|exact Hj].
      intros k' c' Hle Hn. apply (Hall (S k') c'); [split; [apply Nat.lt_0_succ|apply le_n_S, Hle]|exact Hn].
    - rewrite run_hist_nth_S in Hi. apply (IH _ i j rw_i rw_j (proj2 (Nat.succ_lt_mono i j) Hij) Hi Hj I).
      intros k c' [Hk1 Hk2] Hn. apply (Hall (S k) c'); [split; [apply -> Nat.succ_lt_mono; exact Hk1|apply le_n_S, Hk2]|exact Hn].
  Qed.
End History.

(* the statement, parametrised by the variant of the code *)
Definition rollback_online_stmt (fx : fixes) : Prop :=
  forall h s0 i j rp_i w_i rp_j w_j,
  (i < j)%nat ->
  nth_error (run_hist fx h s0) i = Some (Ok rp_i, w_i) ->
  nth_error (run_hist fx h s0) j = Some (Ok rp_j, w_j) ->
  (forall k c, (i < k <= j)%nat -> nth_error h k = Some c ->
               forall r, final_root fx c = Some r -> online_same (rp_root rp_i) r) ->
  ts_version (rp_ts rp_i) <= ts_version (rp_ts rp_j)
  /\ sn_version (rp_snap rp_i) <= sn_version (rp_snap rp_j)
  /\ listed_version (rp_snap rp_i) <= listed_version (rp_snap rp_j).

Lemma rollback_online_fixed : rollback_online_stmt fixed.
Proof.
  intros h s0 i j rp_i w_i rp_j w_j Hij Hi Hj Hall. set (A := rp_root rp_i) in *.
  destruct (run_hist_nth _ _ _ _ _ Hi) as (ci & si & _ & Ei).
  destruct (run_hist_nth _ _ _ _ _ Hj) as (cj & sj & Hcj & Ej).
  destruct (cycle_ok_floors A _ _ _ _ Ei (online_same_refl _)) as (<- & <- & <-).
  assert (Oj : online_same A (rp_root rp_j)).
  { apply (Hall j cj); [split; [exact Hij|apply le_n]|exact Hcj|]. apply (cycle_ok_recorded _ _ _ _ Ej). }
  destruct (cycle_ok_floors A _ _ _ _ Ej Oj) as (<- & <- & <-).
  apply (between (InvA A) (fun c => forall r, final_root fixed c = Some r -> online_same A r) (online_le A)
                 (online_le_trans A) (cycle_online A) h s0 i j _ _ Hij Hi Hj); [|exact Hall].
  exists A. split; [apply (cycle_ok_recorded _ _ _ _ Ei)|apply online_same_refl].
Qed.

(* the targets role: its stored file is never deleted; only its own authorisation matters *)
Lemma cycle_targets A c s res w' :
  (forall r, final_root fixed c = Some r -> auth_eq 2 A r) ->
  run_cycle fixed c s = (res, w') ->
  floor tg_sigs tg_version 2 A (st_tgt s) <= floor tg_sigs tg_version 2 A (st_tgt (w_store w')).
Proof.
  intros Hfin H.
  apply (cycle_writes (fun a b => floor tg_sigs tg_version 2 A (st_tgt a) <= floor tg_sigs tg_version 2 A (st_tgt b))
                      fixed c s fixed_atomic) in H; [exact H|..].
  - (* reflexive *) intro a. apply N.le_refl.
  - (* transitive *) intros a b d. apply N.le_trans.
  - (* clock *) intro a. apply N.le_refl.
  - (* name of a delegated-role file *) intros n a. apply N.le_refl.
  - (* removal on rotation *) intros r0 r a b _ _ _ Rm. apply removed_fields in Rm as (_ & _ & -> & _). apply N.le_refl.
  - (* root *) intros r a _. apply N.le_refl.
  - (* timestamp *) intros r a d _ _. apply N.le_refl.
  - (* snapshot *) intros r ts a d _ _. apply N.le_refl.
  - (* targets *) intros r sn a d Hfr (_ & V & Old & _). exact (floor_step _ _ _ _ r _ _ (Hfin r Hfr) V Old).
Qed.

Theorem rollback_targets : forall h s0 i j rp_i w_i rp_j w_j,
  (i < j)%nat ->
  nth_error (run_hist fixed h s0) i = Some (Ok rp_i, w_i) ->
  nth_error (run_hist fixed h s0) j = Some (Ok rp_j, w_j) ->
  (forall k c, (i < k <= j)%nat -> nth_error h k = Some c ->
               forall r, final_root fixed c = Some r -> auth_eq 2 (rp_root rp_i) r) ->
  tg_version (rp_targets rp_i) <= tg_version (rp_targets rp_j).
Proof.
  intros h s0 i j rp_i w_i rp_j w_j Hij Hi Hj Hall. set (A := rp_root rp_i) in *.
  destruct (run_hist_nth _ _ _ _ _ Hi) as (ci & si & _ & Ei).
  destruct (run_hist_nth _ _ _ _ _ Hj) as (cj & sj & Hcj & Ej).
  destruct (cycle_ok_recorded _ _ _ _ Ei) as (_ & _ & _ & _ & _ & _ & ti & Gi & Vi & <-).
  destruct (cycle_ok_recorded _ _ _ _ Ej) as (_ & _ & _ & _ & _ & Fj & tj & Gj & Vj & <-).
  rewrite <- (Hall j cj (conj Hij (le_n j)) Hcj _ Fj) in Vj.
  rewrite <- (floor_doc tg_sigs tg_version 2 A ti Vi), <- (floor_doc tg_sigs tg_version 2 A tj Vj), <- Gi, <- Gj.
  apply (between (fun _ => True) (fun c => forall r, final_root fixed c = Some r -> auth_eq 2 A r)
                 (fun s s' => floor tg_sigs tg_version 2 A (st_tgt s) <= floor tg_sigs tg_version 2 A (st_tgt s'))
                 (fun a b d => N.le_trans _ _ _) (fun c s res w' G E _ => conj I (cycle_targets A c s res w' G E))
                 h s0 i j _ _ Hij Hi Hj I Hall).
Qed.

(* the witness on which the statement fails before the repairs (C03_rollback_refuted,
   C15_truncate_and_write_refuted): shipped root v1 (timestamp key 3), repository root v2 (timestamp key 4);
   first timestamp version 5, then a replayed version 4 *)
Definition wk (k : N) : sig := {| s_claim := k; s_by := k; s_ok := true |}.
Definition w_roles (tsk : N) : list (N * rolekeys) :=
  [(0, {| rk_keyids := [0]; rk_threshold := 1 |}); (1, {| rk_keyids := [1]; rk_threshold := 1 |});
   (2, {| rk_keyids := [2]; rk_threshold := 1 |}); (3, {| rk_keyids := [tsk]; rk_threshold := 1 |})].
Definition w_root (v tsk : N) : root :=
  {| r_version := v; r_expires := 100; r_cs := false; r_keys := [0; 1; 2; tsk];
     r_roles := w_roles tsk; r_sigs := [wk 0] |}.
Definition w_targets : targets := Targets 1 100 [] false [] [] [wk 2].
Definition w_snap (v : N) : snapshot :=
  {| sn_version := v; sn_expires := 100;
     sn_meta := [(name_targets, {| m_version := 1; m_length := None; m_hash := None |})]; sn_sigs := [wk 1] |}.
Definition w_ts (v sv tsk : N) : timestamp :=
  {| ts_version := v; ts_expires := 100;
     ts_meta := [(name_snapshot, {| m_version := sv; m_length := None; m_hash := None |})]; ts_sigs := [wk tsk] |}.
Definition w_file (c : content) : served := Served {| f_len := Some 10; f_digest := 1; f_fail := 0; f_body := c |}.
Definition w_cfg : config :=
  {| c_max_root_size := 100; c_max_targets_size := 100; c_max_timestamp_size := 100;
     c_max_snapshot_size := 100; c_max_root_updates := 10; c_enforce := false; c_fuel := 20 |}.
Definition w_srv (root2 : bool) (v tsk : N) : server :=
  (if root2 then [(root_json 2, w_file (CRoot (w_root 2 tsk)))] else [])
  ++ [(name_timestamp, w_file (CTs (w_ts v 5 tsk))); (name_snapshot, w_file (CSnap (w_snap 5)));
      (name_targets, w_file (CTargets w_targets))].
Definition w_cyc (root2 : bool) (v tsk : N) (flt : option (nat * N)) : cyc :=
  {| cy_cfg := w_cfg; cy_shipped := CRoot (w_root 1 3); cy_srv := w_srv root2 v tsk; cy_now := 0;
     cy_fault := flt |}.

Definition results (fx : fixes) (h : list cyc) : list (option (N * N)) :=
  map (fun rw => match fst rw with
                 | Ok rp => Some (r_version (rp_root rp), ts_version (rp_ts rp))
                 | Err _ _ => None
                 end) (run_hist fx h store0).

(* F5: before the repair, step 1.9 compared with the shipped root: the stored timestamp is deleted on
   every cycle and a replayed older timestamp is accepted *)
Definition f5_history : list cyc := [w_cyc true 5 4 None; w_cyc true 4 4 None].

(* F9: with truncate-and-write, killing the client in the middle of the write of timestamp.json
   leaves an unparsable file, which is ignored: the replayed older timestamp is then accepted *)
Definition not_atomic : fixes := Build_fixes true true true true true false true.
Definition f9_history : list cyc :=
  [w_cyc false 5 3 None; w_cyc false 6 3 (Some (1%nat, 2)); w_cyc false 4 3 None].
