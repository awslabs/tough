(* C13 - a key is only trusted under the identifier that is the digest of its content.
   The lemmas are in Proofs/KeysP.v. [calc k] stands for the library's
   Key::key_id: SHA-256 of the canonical form of the (re-serialised) key. *)
From ToughV Require Export Model.Base Model.Keys.
From ToughV Require Export Proofs.KeysP.

(* a key table that parses attributes every key to calc of that key, lists no identifier twice and
   keeps every entry; every entry's identifier text decodes (in either hex case) to calc of its key *)
Theorem C13_parse_sound : forall (key : Type) (calc : key -> bytes) entries m,
  parse_keys key calc [] entries = Some m ->
  NoDup (map fst m) /\ (forall id k, In (id, k) m -> id = calc k)
  /\ m = map (fun e => (calc (snd e), snd e)) entries
  /\ Forall (fun e => hex_decode (fst e) = Some (calc (snd e))) entries.
Proof.
  intros key calc entries m H. apply parse_keys_iff in H as (F & N & ->); [|constructor].
  cbn [map rev app] in *. split; [rewrite map_map; exact N|]. split; [|split; [reflexivity|exact F]].
  intros id k X. apply in_map_iff in X as [e [[= <- <-] _]]. reflexivity.
Qed.
Print Assumptions C13_parse_sound.

(* conversely a table whose identifiers are correct and pairwise distinct is accepted *)
Theorem C13_parse_complete : forall (key : Type) (calc : key -> bytes) entries,
  Forall (fun e => hex_decode (fst e) = Some (calc (snd e))) entries ->
  NoDup (map (fun e => calc (snd e)) entries) ->
  parse_keys key calc [] entries = Some (map (fun e => (calc (snd e), snd e)) entries).
Proof.
  intros key calc entries F N. apply parse_keys_iff; [constructor|]. repeat split; assumption.
Qed.
Print Assumptions C13_parse_complete.

(* any entry whose identifier is not the digest of its key makes the whole table unparsable *)
Theorem C13_wrong_id_refused : forall (key : Type) (calc : key -> bytes) pre idtext k post,
  hex_decode idtext <> Some (calc k) ->
  parse_keys key calc [] (pre ++ (idtext, k) :: post) = None.
Proof.
  intros key calc pre idtext k post Hw.
  destruct (parse_keys key calc [] _) as [m|] eqn:E; [|reflexivity].
  apply parse_keys_iff in E as [F _]; [|constructor]. apply Forall_elt in F. contradiction.
Qed.
Print Assumptions C13_wrong_id_refused.

Theorem C13_hex_roundtrip : forall b, Forall (fun x => x < 256) b -> hex_decode (hex_encode b) = Some b.
Proof. exact hex_roundtrip. Qed.
Print Assumptions C13_hex_roundtrip.

Theorem C13_case_insensitive : forall s, hex_decode (map upper s) = hex_decode s.
Proof.
  (* hex_decode takes two characters at a time: the recursive call is on the tail of the tail *)
  fix IH 1. intros [|h [|l r]]; [reflexivity|reflexivity|].
  cbn [map hex_decode]. rewrite !unhex_upper, (IH r). reflexivity.
Qed.
Print Assumptions C13_case_insensitive.

(* the DER wrapping used for PEM-encoded RSA and ECDSA keys is undone exactly by the decoder *)
Theorem C13_spki_roundtrip : forall b, N.of_nat (length b) < 2 ^ 60 ->
  spki_decode OID_RSA None (spki_encode OID_RSA None b) = Some b
  /\ spki_decode OID_EC (Some OID_P256) (spki_encode OID_EC (Some OID_P256) b) = Some b.
Proof.
  intros b H. split; (apply spki_roundtrip_gen; [vm_compute; reflexivity|vm_compute; lia|exact H]).
Qed.
Print Assumptions C13_spki_roundtrip.

Example C13_example :
  asn1_encode_oid OID_RSA = [42; 134; 72; 134; 247; 13; 1; 1; 1]
  /\ to_vlq 16384 = [129; 128; 0] /\ to_vlq 268435455 = [255; 255; 255; 127]
  /\ asn1_encode_len 1110 = [130; 4; 86] /\ asn1_encode_len 132 = [129; 132].
Proof. exact der_examples. Qed.
