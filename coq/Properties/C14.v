(* C14 - online-key rotation lets clients recover from fast-forwarded versions.
   The lemmas are in Proofs/ClientP.v, Proofs/RollbackP.v and Proofs/LockoutP.v. *)
From ToughV Require Export Model.Base Model.Sig Model.Deleg Model.Client.
From ToughV Require Import Proofs.ClientP Proofs.RollbackP.
From ToughV Require Export Proofs.ClientP Proofs.DelegLoadP Proofs.LivenessP Proofs.LockoutP.
Export RollbackP.

(* when the root walk ends with a root whose timestamp or snapshot keys differ from those of the
   previously trusted root, the stored timestamp and snapshot are gone before step 2 *)
Theorem C14_rotation_clears : forall cfg r0 srv now w r w1,
  load_root fixed cfg (CRoot r0) srv now w = (Ok r, w1) ->
  rotated (reference_root fixed r0 (w_store w)) r = true ->
  st_ts (w_store w1) = None /\ st_snap (w_store w1) = None /\ st_root (w_store w1) = Some (SDoc r).
Proof.
  intros cfg r0 srv now w r w1 H Hrot.
  apply load_root_inv in H as [(_ & c & E & _)|(r0' & [r'|] & wa & [= <-] & _ & _ & H)];
    [discriminate| |destruct H; discriminate].
  apply finish_root_ok in H as (-> & _ & Cleared & Recorded).
  destruct (Cleared Hrot) as [Ts Snap]. split; [exact Ts|]. split; [exact Snap|exact (Recorded eq_refl)].
Qed.
Print Assumptions C14_rotation_clears.

(* and then no stored version - however large - makes the client refuse metadata as older *)
Theorem C14_no_constraint_timestamp : forall fx cfg r srv now w a w',
  st_ts (w_store w) = None -> load_timestamp fx cfg r srv now w <> (Err E_Older a, w').
Proof.
  intros fx cfg r srv now w a w' Hn H. apply load_timestamp_inv in H as (_ & _ & Ld).
  exact (load_doc_not_older _ _ _ _ _ _ _ _ _ Hn Ld).
Qed.
Print Assumptions C14_no_constraint_timestamp.

Theorem C14_no_constraint_snapshot : forall fx cfg r ts srv now w a w',
  st_snap (w_store w) = None -> load_snapshot fx cfg r ts srv now w <> (Err E_Older a, w').
Proof.
  intros fx cfg r ts srv now w a w' Hn H.
  apply load_snapshot_inv in H as [(_ & E & _)|(m & _ & _ & _ & Ld)]; [discriminate|].
  exact (load_doc_not_older _ _ _ _ _ _ _ _ _ Hn Ld).
Qed.
Print Assumptions C14_no_constraint_snapshot.

(* rotation is detected exactly when one of the two key lists differs *)
Theorem C14_rotated_iff : forall ref r,
  rotated ref r = false <-> role_keys ref 3 = role_keys r 3 /\ role_keys ref 1 = role_keys r 1.
Proof.
  intros ref r. split.
  - intro H. apply orb_false_iff in H as [H3 H1]. apply negb_false_iff in H3, H1.
    split; apply listN_eqb_eq; assumption.
  - intros [H3 H1]. exact (not_rotated _ _ H3 H1).
Qed.
Print Assumptions C14_rotated_iff.

(* stored state of roles whose keys did not change keeps protecting: C03's theorems *)
Theorem C14_unrotated_keeps_protecting : rollback_online_stmt fixed.
Proof. exact rollback_online_fixed. Qed.
Print Assumptions C14_unrotated_keeps_protecting.

(* Recovery, end to end and after any history: once a newer root has replaced the timestamp and
   snapshot keys so that nothing the datastore ever held or earlier cycles were served verifies under
   it for those roles, an uninterrupted cycle succeeds against every valid repository under that root -
   whatever its timestamp and snapshot versions, in particular versions lower than the fast-forwarded
   ones (targets remain protected by their own, unchanged authorisation). *)
Theorem C14_recovery : forall h s0 c r ts sn t0 t,
  cy_fault c = None ->
  (forall tm, known_time s0 h tm -> (tm <= cy_now c)%Z) ->
  final_root fixed c = Some r ->
  (c_enforce (cy_cfg c) = true -> (cy_now c <= r_expires r)%Z) ->
  ts_accepted (cy_cfg c) r (cy_srv c) (cy_now c) store0 ts ->
  snap_accepted (cy_cfg c) r ts (cy_srv c) (cy_now c) store0 sn ->
  tgt_accepted (cy_cfg c) r sn (cy_srv c) (cy_now c) store0 t0 ->
  tgt_tree (cy_cfg c) (cy_srv c) sn (r_cs r) t0 t -> validate t = true ->
  (forall x, known_ts s0 h x -> root_verify r 3 (ts_sigs x) = false) ->
  (forall x, known_snap s0 h x -> root_verify r 1 (sn_sigs x) = false) ->
  (forall x, known_tgt s0 h x -> root_verify r 2 (tg_sigs x) = true -> tg_version x <= tg_version t0) ->
  exists w', run_cycle fixed c (end_store fixed h s0)
             = (Ok {| rp_root := r; rp_ts := ts; rp_snap := sn; rp_targets := t |}, w').
Proof. exact recovery_after_rotation. Qed.
Print Assumptions C14_recovery.
