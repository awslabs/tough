(* C05 - each role matches what the role above it pinned (no mix-and-match).
   The lemmas are in Proofs/SitesP.v and Proofs/DelegLoadP.v. *)
From ToughV Require Export Model.Base Model.Pct Model.Sig Model.Deleg Model.Client.
From ToughV Require Import Proofs.ClientP Proofs.SitesP.
From ToughV Require Export Proofs.DelegLoadP.
Export ClientP SitesP.

(* the trusted snapshot is the file served under the name the timestamp's entry determines
   (version-prefixed under consistent snapshots), has exactly the listed version, the listed digest
   when one is listed, and is no longer than the listed length (or the configured limit) *)
Theorem C05_snapshot_pinned : forall c s rp w',
  run_cycle fixed c s = (Ok rp, w') ->
  exists m file,
    lookup name_snapshot (ts_meta (rp_ts rp)) = Some m
    /\ lookup (versioned (r_cs (rp_root rp)) (m_version m) name_snapshot) (cy_srv c) = Some (Served file)
    /\ f_body file = CSnap (rp_snap rp)
    /\ sn_version (rp_snap rp) = m_version m
    /\ (forall h, m_hash m = Some h -> f_digest file = h)
    /\ exists n, f_len file = Some n /\ n <= opt_default (m_length m) (c_max_snapshot_size (cy_cfg c)).
Proof.
  intros c s rp w' H.
  destruct (cycle_ok_facts _ _ _ _ H) as (r0 & l & t0 & s2 & s3 & s4 & F).
  destruct (cf_snap F) as ((m & file & Hm & Hf & Hb & Hv) & _).
  apply fetch_ok in Hf as (Hl & Hn & Hh). exists m, file. repeat split; auto.
Qed.
Print Assumptions C05_snapshot_pinned.

Theorem C05_targets_pinned : forall c s rp w',
  run_cycle fixed c s = (Ok rp, w') ->
  exists m file t0,
    lookup name_targets (sn_meta (rp_snap rp)) = Some m
    /\ lookup (versioned (r_cs (rp_root rp)) (m_version m) name_targets) (cy_srv c) = Some (Served file)
    /\ f_body file = CTargets t0 /\ loaded_from t0 (rp_targets rp)
    /\ tg_version (rp_targets rp) = m_version m
    /\ (forall h, m_hash m = Some h -> f_digest file = h)
    /\ exists n, f_len file = Some n /\ n <= opt_default (m_length m) (c_max_targets_size (cy_cfg c)).
Proof.
  intros c s rp w' H.
  destruct (cycle_ok_facts _ _ _ _ H) as (r0 & l & t0 & s2 & s3 & s4 & F).
  destruct (cf_tgt F) as ((m & file & Hm & Hf & Hb & Hv) & _). pose proof (cf_loaded F) as Hl.
  apply fetch_ok in Hf as (Hlk & Hn & Hh). exists m, file, t0. repeat split; auto.
  destruct Hl as [->|(rs & ->)]; [exact Hv|rewrite tg_set_roles_version; exact Hv].
Qed.
Print Assumptions C05_targets_pinned.

(* every delegated role, at every depth ([loaded], see C01_delegated_sites): it is listed in the
   snapshot, was fetched under the (version-prefixed) name the entry determines, has exactly the listed
   version, the listed digest when listed, and is within the listed length or the configured limit *)
Theorem C05_delegated_pinned : forall cfg srv snap cs dkeys all name t0,
  role_fetch_ok cfg srv snap cs dkeys all name t0 ->
  exists m file,
    lookup (json_of name) (sn_meta snap) = Some m
    /\ lookup (role_filename cs (m_version m) name) srv = Some (Served file)
    /\ f_body file = CTargets t0 /\ tg_version t0 = m_version m
    /\ (forall h, m_hash m = Some h -> f_digest file = h)
    /\ exists n, f_len file = Some n /\ n <= opt_default (m_length m) (c_max_targets_size cfg).
Proof.
  intros cfg srv snap cs dkeys all name t0 (m & file & Hm & Hf & Hb & _ & Hv).
  apply fetch_ok in Hf as (Hl & Hn & Hh). exists m, file. repeat split; auto.
Qed.
Print Assumptions C05_delegated_pinned.
