(* C01 - only metadata signed by a threshold of distinct authorised keys is trusted.
   The lemmas are in Proofs/SigP.v (the threshold loops) and Proofs/DelegLoadP.v (the delegated roles a
   successful update cycle loads). *)
From ToughV Require Export Model.Base Model.Sig Model.Deleg Model.Client.
From ToughV Require Import Proofs.SigP.
From ToughV Require Export Proofs.ClientP Proofs.DelegLoadP.

(* the loop of Root::verify_role - and of Delegations::verify_role after the repair of F1 - accepts
   exactly when at least `threshold` DISTINCT authorised keys that are present in the key table have
   a valid signature: for every key table, key-id list, threshold and signature list *)
Theorem C01_threshold_sound_complete : forall table keyids threshold sigs,
  verify_distinct table keyids threshold sigs = spec_accept table keyids threshold sigs.
Proof. exact verify_distinct_spec. Qed.
Print Assumptions C01_threshold_sound_complete.

Theorem C01_count_is_cardinality : forall table keyids sigs,
  count_distinct table keyids [] sigs = N.of_nat (length (good_signers table keyids sigs)).
Proof. exact count_distinct_spec. Qed.
Print Assumptions C01_count_is_cardinality.

(* what never counts: an invalid signature (unknown key, key absent from the table, made by another
   key, over other content or corrupted), a signature by a key not authorised for the role, and a
   second signature by a key that already has a valid one - removing such an entry changes nothing *)
Theorem C01_no_credit_invalid : forall table keyids l1 s l2,
  sig_valid table s = false ->
  good_signers table keyids (l1 ++ s :: l2) = good_signers table keyids (l1 ++ l2).
Proof.
  intros table keyids l1 s l2 Hv. apply no_credit. intro H. apply counted_true in H as [_ H]. congruence.
Qed.
Print Assumptions C01_no_credit_invalid.

Theorem C01_invalid_kinds : forall table s,
  memN (s_claim s) table = false \/ s_by s <> s_claim s \/ s_ok s = false -> sig_valid table s = false.
Proof.
  intros table s. unfold sig_valid. intros [H|[H|H]].
  - rewrite H. reflexivity.
  - apply N.eqb_neq in H. rewrite H, andb_false_r. reflexivity.
  - rewrite H, andb_false_r. reflexivity.
Qed.
Print Assumptions C01_invalid_kinds.

Theorem C01_no_credit_unauthorised : forall table keyids l1 s l2,
  memN (s_claim s) keyids = false ->
  good_signers table keyids (l1 ++ s :: l2) = good_signers table keyids (l1 ++ l2).
Proof.
  intros table keyids l1 s l2 Hm. apply no_credit. intro H. apply counted_true in H as [H _].
  apply memN_false in Hm. contradiction.
Qed.
Print Assumptions C01_no_credit_unauthorised.

Theorem C01_no_credit_duplicate : forall table keyids l1 s l2 s',
  In s' (l1 ++ l2) -> s_claim s' = s_claim s -> sig_valid table s' = true ->
  good_signers table keyids (l1 ++ s :: l2) = good_signers table keyids (l1 ++ l2).
Proof.
  intros table keyids l1 s l2 s' Hin Hc Hv. apply no_credit. intros _. exists s'. repeat split; assumption.
Qed.
Print Assumptions C01_no_credit_duplicate.

(* every delegated role of a successfully loaded repository, at every depth: it is the file served
   under the name its snapshot entry determines and it carries valid signatures of a threshold of
   distinct keys that its delegating role authorises for it ([loaded] is the inductive specification
   of the loaded delegation tree in Proofs/DelegLoadP.v; [role_fetch_ok] is its per-role content) *)
Theorem C01_delegated_sites : forall c s rp w',
  run_cycle fixed c s = (Ok rp, w') -> tg_has_deleg (rp_targets rp) = true ->
  exists t0, rp_targets rp = tg_set_roles t0 (tg_roles (rp_targets rp))
             /\ loaded (cy_cfg c) (cy_srv c) (rp_snap rp) (r_cs (rp_root rp))
                       (tg_dkeys t0) (tg_roles t0) (tg_roles (rp_targets rp)).
Proof.
  intros c s rp w' H Hd.
  apply run_cycle_ok_inv in H as (r0 & w0 & w1 & w2 & w3 & _ & _ & _ & _ & _ & _ & Etgt).
  apply load_targets_ok in Etgt as (m & t0 & s1 & w4 & _ & _ & _ & _ & Eattach).
  apply attach_gives_loaded in Eattach as [(Hd0 & E)|(_ & rs & E & L)]; [congruence|].
  exists t0. rewrite E, tg_set_roles_roles. auto.
Qed.
Print Assumptions C01_delegated_sites.

Theorem C01_delegated_site_spec : forall cfg srv snap cs dkeys all name t0,
  role_fetch_ok cfg srv snap cs dkeys all name t0 ->
  exists h, find_hdr name all = Some h /\ spec_accept dkeys (dh_keyids h) (dh_threshold h) (tg_sigs t0) = true.
Proof.
  intros cfg srv snap cs dkeys all name t0 (m & file & _ & _ & _ & V & _). apply deleg_verify_spec, V.
Qed.
Print Assumptions C01_delegated_site_spec.

(* the counter Delegations::verify_role used before the repair of F1 credited repeated signatures *)
Theorem C01_deleg_counter_refuted : exists table keyids threshold sigs,
  verify_all table keyids threshold sigs = true /\ spec_accept table keyids threshold sigs = false.
Proof.
  exists [4; 5], [4; 5], 2, [{| s_claim := 4; s_by := 4; s_ok := true |}; {| s_claim := 4; s_by := 4; s_ok := true |}].
  split; vm_compute; reflexivity.
Qed.
Print Assumptions C01_deleg_counter_refuted.

Example C01_example :
  verify_distinct [1; 2; 3; 4; 9] [1; 2; 3; 4] 3
    [{| s_claim := 1; s_by := 1; s_ok := true |}; {| s_claim := 1; s_by := 1; s_ok := true |};
     {| s_claim := 9; s_by := 9; s_ok := true |}; {| s_claim := 2; s_by := 2; s_ok := false |};
     {| s_claim := 3; s_by := 3; s_ok := true |}; {| s_claim := 4; s_by := 4; s_ok := true |}] = true.
Proof. exact accept_example. Qed.
