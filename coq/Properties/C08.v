(* C08 - saving a target is atomic, verified-only and confined to the output directory.
   The lemmas are in Proofs/TNameP.v (and Proofs/StreamP.v for "verified"). *)
From ToughV Require Export Model.Base Model.Stream Model.TName.
From ToughV Require Export Proofs.StreamP Proofs.TNameP.

(* an accepted target name resolves to a non-empty sequence of normal components (not empty, not ".",
   not "..", no separator inside), optionally rooted *)
Theorem C08_clean_normal : forall name r, clean_name name = inr r ->
  exists absolute stack,
    r = (if absolute : bool then [47] else []) ++ join_slash stack
    /\ stack <> [] /\ Forall normal_comp stack.
Proof.
  intros name r H. destruct (clean_name_normal name r H) as (stack & Hr & Hne & Hs & _).
  exists (match name with c :: _ => c =? 47 | [] => false end), stack. repeat split; assumption.
Qed.
Print Assumptions C08_clean_normal.

(* whatever the file name, a destination that passes the path check lies strictly inside outdir and
   consists, below outdir, of components of the file name *)
Theorem C08_confined : forall outdir fname dest, save_path outdir fname = inr dest ->
  exists cs, dest = outdir ++ cs /\ cs <> [] /\ (forall c, In c cs -> In c (std_components fname)).
Proof.
  intros outdir fname dest H. destruct (save_path_inv _ _ _ H) as (E & mid & lastc & Ed).
  exists (mid ++ [lastc]). split; [exact Ed|]. split; [destruct mid; discriminate|].
  intros c Hc. rewrite Ed in E. destruct (match fname with c :: _ => c =? 47 | [] => false end).
  - rewrite <- E. apply in_or_app. right. exact Hc.
  - apply app_inv_head in E. rewrite <- E. exact Hc.
Qed.
Print Assumptions C08_confined.

(* and for resolved names - with either prefix mode - those components are all normal, so no ".."
   below outdir, whatever the original name looked like *)
Theorem C08_components_plain : forall name r, clean_name name = inr r ->
  Forall normal_comp (std_components r) /\ std_components r <> [].
Proof.
  intros name r H. destruct (clean_name_normal name r H) as (stack & -> & Hne & Hs & _).
  destruct (match name with c :: _ => c =? 47 | [] => false end); cbn [app]; [rewrite std_components_slash|];
    rewrite (std_components_join stack Hne Hs); split; assumption.
Qed.
Print Assumptions C08_components_plain.

Theorem C08_components_digest_prefixed : forall name r hex, clean_name name = inr r ->
  no_slash hex -> hex <> [] -> ~ In 46 hex ->
  Forall normal_comp (std_components (hex ++ [46] ++ r)) /\ std_components (hex ++ [46] ++ r) <> [].
Proof.
  intros name r hex H Hh Hne H46. destruct (clean_name_normal name r H) as (stack & -> & Hsn & Hs & _).
  destruct stack as [|c rr]; [contradiction|].
  assert (Hp : forall t, no_slash t -> normal_comp ((hex ++ [46]) ++ t)).
  { intros t Ht. split.
    - destruct hex as [|h0 hex']; [contradiction|]. apply is_normal_head. intro E. apply H46. left. exact E.
    - repeat apply no_slash_app; [exact Hh| |exact Ht]. intros [X|[]]. discriminate X. }
  (* the file name is again a join of normal components: the prefix is a component of its own before a rooted
     name and extends the first component of a relative one *)
  assert (E : exists st, hex ++ [46] ++ (if match name with c :: _ => c =? 47 | [] => false end then [47] else [])
                             ++ join_slash (c :: rr) = join_slash st /\ st <> [] /\ Forall normal_comp st).
  { destruct (match name with c :: _ => c =? 47 | [] => false end).
    - exists ((hex ++ [46]) :: c :: rr). split; [rewrite join_slash_cons, <- app_assoc; reflexivity|].
      split; [discriminate|]. constructor; [|exact Hs]. rewrite <- (app_nil_r (hex ++ [46])). apply Hp, no_slash_nil.
    - exists (((hex ++ [46]) ++ c) :: rr). split; [rewrite <- join_prefixed, <- app_assoc; reflexivity|].
      split; [discriminate|]. apply Forall_cons_iff in Hs as [[_ Hc] Hrr]. constructor; [apply Hp, Hc|exact Hrr]. }
  destruct E as (st & -> & Hst & Hn). rewrite (std_components_join st Hst Hn). split; assumption.
Qed.
Print Assumptions C08_components_digest_prefixed.

(* atomicity: after any prefix of the file-system steps of a save (a failure or crash may follow any
   step) the files are untouched, or - only once all steps are done, and only if the stream ended
   without error - they differ exactly by dest := the bytes received *)
Theorem C08_atomic : forall dest s k f,
  files_unchanged f (fs_run f (save_steps dest s) k)
  \/ (snd (consume s) = true /\ (length (save_steps dest s) <= k)%nat
      /\ fs_files (fs_run f (save_steps dest s) k) = fs_put dest (chunk_bytes s) (fs_files f)).
Proof.
  intros dest s k f. unfold files_unchanged. rewrite fs_run_save.
  destruct (snd (consume s)); [|left; reflexivity].
  destruct (length (save_steps dest s) <=? k)%nat eqn:E; [right|left; reflexivity].
  apply Nat.leb_le in E. repeat split. exact E.
Qed.
Print Assumptions C08_atomic.

Theorem C08_touches_only_dest : forall dest s k f p, paths_eqb p dest = false ->
  fs_get p (fs_files (fs_run f (save_steps dest s) k)) = fs_get p (fs_files f).
Proof.
  intros dest s k f p Hp. rewrite fs_run_save.
  destruct (snd (consume s) && (length (save_steps dest s) <=? k)%nat); [apply fs_get_put_other, Hp|reflexivity].
Qed.
Print Assumptions C08_touches_only_dest.

(* "verified-only": the stream a save consumes is the checked stream of C06, so the bytes that reach
   dest hash to the signed digest *)
Theorem C08_verified_only : forall (H : bytes -> N) len dig raw dest k f,
  len < u64max' ->
  let s := fetch_sha256 H len dig raw in
  fs_files (fs_run f (save_steps dest s) k) <> fs_files f ->
  H (chunk_bytes s) = dig /\ snd (consume s) = true.
Proof.
  intros H len dig raw dest k f Hl s Hne. rewrite fs_run_save in Hne.
  destruct (snd (consume s)) eqn:Hok; [|exfalso; apply Hne; reflexivity].
  split; [|reflexivity]. destruct (consume s) as [d ok] eqn:E. cbn [snd] in Hok. subst ok.
  pose proof (consume_ok _ _ E) as [Hd _]. subst s.
  destruct (fetch_sha256_sound H len dig raw d Hl E) as (Hh & _). rewrite <- Hd. exact Hh.
Qed.
Print Assumptions C08_verified_only.

Example C08_example :
  clean_name [97; 47; 46; 46; 47; 46; 46; 47; 98; 47; 47; 99] = inr [98; 47; 99]
  /\ save_path [[111]] [47; 101; 116; 99] = inl SaveUnsafePath
  /\ save_path [[111]] [98; 47; 99] = inr [[111]; [98]; [99]].
Proof. repeat split; vm_compute; reflexivity. Qed.
