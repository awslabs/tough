(* C02 - root rotation follows an unbroken, doubly-signed, forward-only chain.
   The lemmas are in Proofs/ClientP.v (the root walk) and Proofs/SitesP.v (what a successful cycle trusts).
   hop cfg srv cur new  : the file served as <version cur + 1>.root.json parses to [new], verifies
                          under the root role of [cur] and under its own, and has a higher version;
   path cfg srv r0 l    : r0 -> l1 -> ... -> ln are such hops;
   stopped cfg srv r    : the next version is unavailable (or carries the version already trusted). *)
From ToughV Require Export Model.Base Model.Sig Model.Deleg Model.Client.
From ToughV Require Import Proofs.ClientP Proofs.SitesP.
From ToughV Require Export Proofs.RollbackP Proofs.SitesP.
Export ClientP.

Theorem C02_chain : forall c s rp w',
  run_cycle fixed c s = (Ok rp, w') ->
  exists r0 l, cy_shipped c = CRoot r0
               /\ root_verify r0 0 (r_sigs r0) = true
               /\ path (cy_cfg c) (cy_srv c) r0 l
               /\ rp_root rp = last_root r0 l
               /\ stopped (cy_cfg c) (cy_srv c) (rp_root rp)
               /\ r_version r0 <= r_version (rp_root rp).
Proof.
  intros c s rp w' H.
  destruct (cycle_ok_facts _ _ _ _ H) as (r0 & l & t0 & s2 & s3 & s4 & F).
  exists r0, l. split; [exact (cf_shipped F)|]. split; [exact (cf_shipped_verified F)|]. split; [exact (cf_path F)|].
  split; [exact (cf_last F)|]. split; [exact (cf_stopped F)|]. rewrite (cf_last F). apply (path_versions _ _ _ _ (cf_path F)).
Qed.
Print Assumptions C02_chain.

(* the walk itself: requests are for consecutive versions N+1 of the roots it passes through and
   end with the one that stopped it; nothing beyond the gap is requested *)
Theorem C02_walk : forall fx fuel cfg srv orig cur w r w',
  root_walk fx fuel cfg srv orig cur w = (Ok r, w') ->
  exists l, path cfg srv cur l /\ r = last_root cur l /\ stopped cfg srv r
            /\ w_log w' = w_log w ++ map (fun x => root_json (r_version x + 1)) (cur :: l)
            /\ r_version r < update_limit fx orig (c_max_root_updates cfg).
Proof.
  intros fx fuel cfg srv orig cur w r w' H. apply root_walk_ok in H as (l & Hp & Hr & Hs & Hlog & Hlim & _).
  exists l. auto.
Qed.
Print Assumptions C02_walk.

(* a shipped root that does not verify under its own keys is refused before any request *)
Theorem C02_bad_shipped_refused : forall fx c s r0,
  cy_shipped c = CRoot r0 -> root_verify r0 0 (r_sigs r0) = false ->
  exists w', run_cycle fx c s = (Err E_VerifyTrusted 0, w') /\ w_log w' = [] /\ w_store w' = s.
Proof.
  intros fx c s r0 Hs Hv. unfold run_cycle, cycle, load_root. rewrite Hs, Hv. cbn [negb].
  eexists. split; [reflexivity|]. split; reflexivity.
Qed.
Print Assumptions C02_bad_shipped_refused.

(* all later roles are verified against the final root only *)
Theorem C02_final_root_only : forall c s rp w',
  run_cycle fixed c s = (Ok rp, w') ->
  root_verify (rp_root rp) 3 (ts_sigs (rp_ts rp)) = true
  /\ root_verify (rp_root rp) 1 (sn_sigs (rp_snap rp)) = true
  /\ root_verify (rp_root rp) 2 (tg_sigs (rp_targets rp)) = true.
Proof.
  intros c s rp w' H. destruct (cycle_ok_facts _ _ _ _ H) as (r0 & l & t0 & s2 & s3 & s4 & F).
  destruct (cf_ts F) as (_ & Vts & _). destruct (cf_snap F) as (_ & Vsn & _). destruct (cf_tgt F) as (_ & Vtg & _).
  repeat split; auto. destruct (cf_loaded F) as [->|(rs & ->)]; [exact Vtg|rewrite tg_set_roles_sigs; exact Vtg].
Qed.
Print Assumptions C02_final_root_only.

(* Conversely the walk is complete: from a shipped root that verifies itself, ANY chain of such hops that the
   server serves is followed to its end - to the root after which nothing newer is available - provided the
   configured update limit is not reached (the model's fuel just has to exceed the number of hops). Together with
   C02_chain: the root a cycle trusts is exactly the end of the chain served. *)
Theorem C02_chain_followed : forall fx c r0 l,
  cy_shipped c = CRoot r0 -> root_verify r0 0 (r_sigs r0) = true ->
  path (cy_cfg c) (cy_srv c) r0 l -> stopped (cy_cfg c) (cy_srv c) (last_root r0 l) ->
  (length l < c_fuel (cy_cfg c))%nat ->
  r_version (last_root r0 l) < update_limit fx (r_version r0) (c_max_root_updates (cy_cfg c)) ->
  final_root fx c = Some (last_root r0 l).
Proof.
  intros fx c r0 l Hs Hv Hp Hst Hf Hl. unfold final_root. rewrite Hs, Hv.
  destruct (root_walk_complete fx (cy_cfg c) (cy_srv c) (r_version r0) l (c_fuel (cy_cfg c)) r0 (world0 store0 None)
              Hp Hst Hf Hl) as (w' & E).
  rewrite E. reflexivity.
Qed.
Print Assumptions C02_chain_followed.

(* non-vacuity: the one-hop chain of the F5 witness (root 1 -> root 2 with a replaced timestamp key) *)
Example C02_chain_followed_example :
  final_root fixed (w_cyc true 5 4 None) = Some (w_root 2 4)
  /\ path w_cfg (w_srv true 5 4) (w_root 1 3) [w_root 2 4]
  /\ stopped w_cfg (w_srv true 5 4) (w_root 2 4).
Proof.
  split; [vm_compute; reflexivity|]. split.
  - split; [|exact I]. eexists. split; [vm_compute; reflexivity|]. cbn. repeat split; vm_compute; reflexivity.
  - unfold stopped. vm_compute. left. reflexivity.
Qed.
