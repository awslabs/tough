(* C11 - canonical JSON output is the OLPC canonical form of the value, and only of it.
   The lemmas are in Proofs/CJsonP.v and Proofs/CJsonNfcP.v. *)
From ToughV Require Export Model.Base Model.Json Model.CJson.
From ToughV Require Import Proofs.BaseP.
From ToughV Require Export Proofs.CJsonP.
From ToughV Require Export Model.Schema Proofs.CJsonNfcP.
From Coq Require Export Permutation Sorted.

(* what is assumed of Unicode normalisation (a parameter of model and specification): it maps the
   empty string to itself, and it neither touches nor creates the characters JSON escapes
   (controls, quotation mark, backslash), so that normalising a string and normalising its
   escape-free fragments agree *)
Definition nfc_ok (nfc : bytes -> bytes) : Prop :=
  nfc [] = []
  /\ (forall a c b, needs_escape c = true -> nfc (a ++ c :: b) = nfc a ++ c :: nfc b)
  /\ (forall a, Forall (fun c => needs_escape c = false) a ->
                Forall (fun c => needs_escape c = false) (nfc a)).

(* the formatter (state machine driven by serde_json's events) computes the recursive
   specification, for every value, including the error (float) case *)
Theorem C11_impl_is_spec : forall nfc, nfc_ok nfc -> forall v, canon_impl nfc v = canon_spec nfc v.
Proof. intros nfc (H0 & H1 & H2). exact (canon_impl_is_spec nfc H0 H1 H2). Qed.
Print Assumptions C11_impl_is_spec.

(* the formatter before the repair of F6 (members ordered by their escaped, quoted key) did not *)
Theorem C11_sorting_refuted :
  exists v, canon_impl_old (fun s => s) v <> canon_spec (fun s => s) v.
Proof. exists f6_witness. vm_compute. discriminate. Qed.
Print Assumptions C11_sorting_refuted.

(* insertion order of members is irrelevant (keys distinct after normalisation) ... *)
Theorem C11_order_independent : forall nfc m1 m2,
  Permutation m1 m2 -> NoDup (map (fun kv => nfc (fst kv)) m1) ->
  canon_spec nfc (JObj m1) = canon_spec nfc (JObj m2).
Proof.
  intros nfc m1 m2 P N. apply cs_obj_perm; [apply Permutation_map, P|rewrite cmap_keys; exact N].
Qed.
Print Assumptions C11_order_independent.

(* ... at every depth: the bytes of a compound value are a function of the bytes of its parts *)
Theorem C11_compositional : forall nfc,
  (forall l1 l2, Forall2 (fun a b => canon_spec nfc a = canon_spec nfc b) l1 l2 ->
                 canon_spec nfc (JArr l1) = canon_spec nfc (JArr l2))
  /\ (forall m1 m2,
        Forall2 (fun a b => nfc (fst a) = nfc (fst b)
                            /\ canon_spec nfc (snd a) = canon_spec nfc (snd b)) m1 m2 ->
        canon_spec nfc (JObj m1) = canon_spec nfc (JObj m2)).
Proof. intro nfc. split; [exact (canon_spec_arr_ext nfc nfc)|exact (canon_spec_obj_ext nfc nfc)]. Qed.
Print Assumptions C11_compositional.

(* members come out strictly sorted by normalised key, and (distinct keys) none is lost or added *)
Theorem C11_output_sorted : forall nfc m es, spec_members nfc m = Some es ->
  canon_spec nfc (JObj m) = Some ([123] ++ print_spec_members true (sort_members es) ++ [125])
  /\ Sorted klt (sort_members es)
  /\ (NoDup (map (fun kv => nfc (fst kv)) m) -> Permutation es (sort_members es)).
Proof.
  intros nfc m es H. rewrite spec_obj, H. split; [reflexivity|].
  split; [apply StronglySorted_Sorted, sort_members_sorted|].
  intro N. apply sort_members_perm. rewrite (spec_members_keys _ _ _ H), cmap_keys. exact N.
Qed.
Print Assumptions C11_output_sorted.

Theorem C11_float_refused : forall nfc v, has_float v -> canon_spec nfc v = None.
Proof.
  intro nfc. induction 1 as [|l x Hin Hf IH|m k x Hin Hf IH]; [reflexivity| |].
  - exact (canon_spec_arr_none nfc l x Hin IH).
  - exact (canon_spec_obj_none nfc m k x Hin IH).
Qed.
Print Assumptions C11_float_refused.

(* "... and only of it": what the canonical form can see of a value is the value with every string
   and member name normalised ([jmap nfc]) and members sorted by name at every depth, a later
   duplicate replacing an earlier one ([jnorm], what serde_json's map does). Two values serialise to
   the same bytes iff they agree in that - for every normalisation function, every value, every
   depth; so values that differ in anything but string normalisation and member order never
   serialise to the same bytes. *)
Theorem C11_only_of_it : forall nfc v1 v2 b, canon_spec nfc v1 = Some b ->
  (canon_spec nfc v2 = Some b <->
   (jnorm (jmap nfc v2) = jnorm (jmap nfc v1) /\ canon_spec nfc v2 <> None)).
Proof. exact canon_only_of_it. Qed.
Print Assumptions C11_only_of_it.

Theorem C11_injective : forall nfc v1 v2 b,
  canon_spec nfc v1 = Some b -> canon_spec nfc v2 = Some b -> jnorm (jmap nfc v1) = jnorm (jmap nfc v2).
Proof.
  intros nfc v1 v2 b H1 H2. symmetry. exact (proj1 (proj1 (C11_only_of_it nfc v1 v2 b H1) H2)).
Qed.
Print Assumptions C11_injective.

(* non-vacuity of C11_only_of_it: values that differ in a scalar, in nesting, or in a name have
   different observable parts; a value and its re-ordering have the same *)
Example C11_only_of_it_example :
  let a := JObj [([97], JInt 1); ([98], JArr [JStr [49]])] in
  let a' := JObj [([98], JArr [JStr [49]]); ([97], JInt 1)] in
  let b := JObj [([97], JInt 1); ([98], JArr [JInt 1])] in
  let c := JObj [([97], JInt 1); ([98], JStr [49])] in
  jnorm (jmap (fun s => s) a) = jnorm (jmap (fun s => s) a')
  /\ jnorm (jmap (fun s => s) a) <> jnorm (jmap (fun s => s) b)
  /\ jnorm (jmap (fun s => s) b) <> jnorm (jmap (fun s => s) c)
  /\ canon_spec (fun s => s) a = canon_spec (fun s => s) a'
  /\ canon_spec (fun s => s) a <> canon_spec (fun s => s) b.
Proof. vm_compute. repeat split; discriminate. Qed.

(* non-vacuity: the identity (all-ASCII input) meets the normalisation hypotheses *)
Example C11_nfc_ok_satisfiable : nfc_ok (fun s => s).
Proof. repeat split; auto. Qed.
Example C11_example :
  canon_impl (fun s => s) (JObj [([98], JInt 12); ([97; 34], JStr [113]); ([97], JArr [JNull; JBool true])])
  = Some [123; 34;97;34; 58; 91;110;117;108;108;44;116;114;117;101;93; 44;
          34;97;92;34;34; 58; 34;113;34; 44; 34;98;34; 58; 49;50; 125].
Proof. vm_compute. reflexivity. Qed.
