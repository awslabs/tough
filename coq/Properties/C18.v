(* C18 - a stream obtained from the HTTP transport yields exactly the bytes of the resource or an
   error, with a bounded number of requests. The lemmas are in Proofs/HttpP.v.

   fetch fx tries res script dflt runs the model of RetryStream (Model/Http.v) against a server that
   answers the n-th request by the n-th script entry and is healthy afterwards. All statements hold
   for every script, resource and number of tries; there is no size bound.

   fixed18 is the code with two repairs: F11 (may_retry counts the current try) and F16 (a success
   answer to a Range request must be a 206). The statements about the code without a repair are the
   ..._refuted lemmas (the witnesses replay on the real code) and, for F16, the ..._partial theorems,
   which hold for every variant of the code against servers that keep honouring ranges once they have
   announced them (ranges_stable). *)
From ToughV Require Export Model.Base Model.Http.
From ToughV Require Import Proofs.HttpP.

(* the bytes handed to the consumer are, at the end and hence at every moment, a prefix of the
   resource: in order, no gap, no duplication *)
Theorem C18_prefix : forall tries res script dflt,
  exists tail, res = yielded (fetch fixed18 tries res script dflt) ++ tail.
Proof. intros. apply (fetch_sound fixed18). left. reflexivity. Qed.
Print Assumptions C18_prefix.

(* a stream that ends without error has delivered the whole resource *)
Theorem C18_complete : forall tries res script dflt,
  result (fetch fixed18 tries res script dflt) = EndedOk ->
  yielded (fetch fixed18 tries res script dflt) = res.
Proof. intros tries res script dflt. apply (fetch_sound fixed18). left. reflexivity. Qed.
Print Assumptions C18_complete.

(* without the F16 repair both statements are false: the server announces ranges, stalls after two
   bytes, and answers the Range request with a plain 200 *)
Theorem C18_prefix_refuted :
  exists tries res script dflt,
    let r := fetch (Build_fixes18 true false) tries res script dflt in
    result r = EndedOk /\ yielded r <> res /\ ~ exists tail, res = yielded r ++ tail.
Proof.
  exists 2, [1; 2; 3], [Build_entry (Stalled 2) true; Build_entry Full false], false.
  vm_compute. split; [reflexivity|]. split; [discriminate|]. intros [tail H]. discriminate.
Qed.
Print Assumptions C18_prefix_refuted.

(* ... and they hold for every variant of the code, the unrepaired one included, when every body
   answer after the first announcement of range support honours ranges *)
Theorem C18_prefix_partial : forall fx tries res script dflt,
  ranges_stable false script dflt = true ->
  exists tail, res = yielded (fetch fx tries res script dflt) ++ tail.
Proof. intros fx tries res script dflt St. apply fetch_sound. right. exact St. Qed.
Print Assumptions C18_prefix_partial.

Theorem C18_complete_partial : forall fx tries res script dflt,
  ranges_stable false script dflt = true ->
  result (fetch fx tries res script dflt) = EndedOk ->
  yielded (fetch fx tries res script dflt) = res.
Proof. intros fx tries res script dflt St. apply fetch_sound. right. exact St. Qed.
Print Assumptions C18_complete_partial.

(* transient failures (5xx answers, bodies stalled by a server with range support) within the retry
   budget do not prevent complete delivery; holds with and without the repairs *)
Theorem C18_recovers : forall fx tries res script,
  Forall (fun e => transient e = true) script -> N.of_nat (length script) < tries ->
  result (fetch fx tries res script true) = EndedOk
  /\ yielded (fetch fx tries res script true) = res.
Proof.
  intros fx tries res script F B.
  pose proof (fetch_ends_ok fx tries res script F B) as E.
  split; [exact E|]. apply fetch_sound; [right; apply transient_stable, F|exact E].
Qed.
Print Assumptions C18_recovers.

(* the i-th request carries Range: bytes=k- only with k > 0 and only after an earlier request of this
   fetch was answered by a success response announcing range support *)
Theorem C18_range_only_if_announced : forall fx tries res script dflt i k,
  nth_error (requests (fetch fx tries res script dflt)) i = Some (Some k) ->
  0 < k /\ exists j e, (j < i)%nat /\ nth_error script j = Some e /\ is_body e = true /\ e_ar e = true.
Proof. exact fetch_log_ok. Qed.
Print Assumptions C18_range_only_if_announced.

(* if the request number (length pre + 1) was issued and answered by status c: 403, 404, 410 are
   reported as file-not-found, any other client error as an error, and in both cases that request is
   the last one *)
Theorem C18_classification : forall fx tries res script dflt pre e rest c,
  script = pre ++ e :: rest -> e_kind e = Status c ->
  (length pre < length (requests (fetch fx tries res script dflt)))%nat ->
  let r := fetch fx tries res script dflt in
  ((c = 403 \/ c = 404 \/ c = 410) -> result r = ErrNotFound /\ length (requests r) = S (length pre))
  /\ ((400 <= c < 500 /\ c <> 403 /\ c <> 404 /\ c <> 410) ->
      result r = ErrOther /\ length (requests r) = S (length pre)).
Proof.
  intros fx tries res script dflt pre e rest c -> K L r.
  split.
  - intros C%classify_notfound. apply fetch_stops_at; [|exact L].
    intros s. rewrite step_eq, (serve_status res e _ c K), C. eexists. reflexivity.
  - intros (C1 & C2 & C3 & C4). apply fetch_stops_at; [|exact L].
    intros s. rewrite step_eq, (serve_status res e _ c K), classify_fatal by lia. eexists. reflexivity.
Qed.
Print Assumptions C18_classification.

(* file-not-found is reported for nothing else *)
Theorem C18_notfound_only_if : forall fx tries res script dflt,
  result (fetch fx tries res script dflt) = ErrNotFound ->
  exists pre e rest c, script = pre ++ e :: rest /\ e_kind e = Status c
    /\ (c = 403 \/ c = 404 \/ c = 410)
    /\ length (requests (fetch fx tries res script dflt)) = S (length pre).
Proof.
  intros fx tries res script dflt H.
  destruct (fetch_notfound_inv fx tries res script dflt H) as (pre & e & rest & c & E & K & C & L).
  exists pre, e, rest, c. apply classify_notfound in C. auto.
Qed.
Print Assumptions C18_notfound_only_if.

(* the number of requests of a fetch never exceeds the configured number of tries (a fetch with
   tries = 0 still issues its first request) *)
Theorem C18_requests_bounded : forall tries res script dflt, 1 <= tries ->
  N.of_nat (length (requests (fetch fixed18 tries res script dflt))) <= tries.
Proof.
  intros tries res script dflt H.
  pose proof (fetch_bounded fixed18 tries res script dflt eq_refl). lia.
Qed.
Print Assumptions C18_requests_bounded.

Theorem C18_requests_bounded_any : forall fx tries res script dflt, fx_tries fx = true ->
  N.of_nat (length (requests (fetch fx tries res script dflt))) <= N.max 1 tries.
Proof. exact fetch_bounded. Qed.
Print Assumptions C18_requests_bounded_any.

(* pre-repair (F11): tries = 1 and two answers 500 give two requests; and for every number of tries
   a server that keeps answering 500 receives tries + 1 requests *)
Theorem C18_requests_refuted :
  exists tries res script dflt, 1 <= tries /\
    N.of_nat (length (requests (fetch original18 tries res script dflt))) = tries + 1.
Proof.
  exists 1, [1; 2; 3], [Build_entry (Status 500) false; Build_entry (Status 500) false], false.
  vm_compute. split; [discriminate|reflexivity].
Qed.
Print Assumptions C18_requests_refuted.

Theorem C18_requests_refuted_all : forall tries res dflt,
  length (requests (fetch original18 tries res
                          (repeat (Build_entry (Status 500) false) (S (N.to_nat tries))) dflt))
  = S (N.to_nat tries).
Proof.
  intros tries res dflt. rewrite fetch_retryable_all; [apply repeat_length|reflexivity| |].
  - apply Forall_forall. intros e ->%repeat_spec. exists 500. split; reflexivity.
  - rewrite repeat_length. lia.
Qed.
Print Assumptions C18_requests_refuted_all.

(* the cases the harness replays first, evaluated inside Coq (cross-check of the extraction):
   F11, F16, and a recovery with two range requests *)
Example C18_example :
  tree_of_result (fetch original18 1 [1; 2; 3] [Build_entry (Status 500) false; Build_entry (Status 500) false] false)
  = T [T []; L 2; T [T []; T []]]
  /\ tree_of_result (fetch original18 2 [1; 2; 3; 4; 5] [Build_entry (Stalled 2) true; Build_entry Full false] false)
  = T [T [L 1; L 2; L 1; L 2; L 3; L 4; L 5]; L 0; T [T []; T [L 2]]]
  /\ tree_of_result (fetch fixed18 2 [1; 2; 3; 4; 5] [Build_entry (Stalled 2) true; Build_entry Full false] false)
  = T [T [L 1; L 2]; L 2; T [T []; T [L 2]]]
  /\ tree_of_result (fetch fixed18 4 [1; 2; 3; 4; 5]
                       [Build_entry (Stalled 2) true; Build_entry (Stalled 1) true; Build_entry (Status 503) true] true)
  = T [T [L 1; L 2; L 3; L 4; L 5]; L 0; T [T []; T [L 2]; T [L 3]; T [L 3]]].
Proof. vm_compute. repeat split. Qed.
