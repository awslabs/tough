(* C12 - signatures bind all content the client uses; roles cannot be swapped.
   The lemmas are in Proofs/CJsonInjP.v and Proofs/SchemaP.v.

   [project sch j] is what serde keeps of the JSON value j when it is read as the type described by
   sch and written again (Model/Schema.v); [canon] is the canonical formatter of the implementation
   (proved equal to its specification in C11; ASCII documents, nfc = identity); signatures are
   symbolic: [accepts sch b j] holds iff the retained content of j has canonical form b, the bytes
   that were signed. *)
From ToughV Require Export Model.Base Model.Json Model.CJson Model.Schema.
From ToughV Require Import Proofs.BaseP.
From ToughV Require Export Proofs.CJsonP Proofs.CJsonInjP Proofs.SchemaP.

(* what the client goes on to use has exactly the signed bytes as canonical form ... *)
Theorem C12_used_is_signed : forall sch b j, accepts sch b j = true ->
  exists r, project sch j = Some r /\ canon r = Some b.
Proof.
  intros sch b j H. apply accepts_spec in H as (r & E & C). exists r. rewrite canon_is_cs. auto.
Qed.
Print Assumptions C12_used_is_signed.

(* ... so two accepted documents over the same signed bytes are used with the same content *)
Theorem C12_same_signed_same_content : forall sch b j1 j2,
  accepts sch b j1 = true -> accepts sch b j2 = true ->
  exists r1 r2, project sch j1 = Some r1 /\ project sch j2 = Some r2 /\ canon r1 = canon r2.
Proof.
  intros sch b j1 j2 H1 H2.
  apply C12_used_is_signed in H1 as (r1 & E1 & C1). apply C12_used_is_signed in H2 as (r2 & E2 & C2).
  exists r1, r2. rewrite C1, C2. auto.
Qed.
Print Assumptions C12_same_signed_same_content.

(* the canonical form determines the value up to the order of members (and the resolution of
   duplicate members, last one wins), at every depth: [jnorm] sorts members recursively *)
Theorem C12_canonical_form_determines_value : forall v1 v2 b,
  canon_spec (fun s => s) v1 = Some b ->
  (canon_spec (fun s => s) v2 = Some b <-> (jnorm v2 = jnorm v1 /\ canon_spec (fun s => s) v2 <> None)).
Proof. exact canonical_form_determines_value. Qed.
Print Assumptions C12_canonical_form_determines_value.

(* so what the client uses is the signed value itself: two documents accepted over the same signed
   bytes are used with the same content, member for member, unknown members included *)
Theorem C12_same_signed_same_value : forall sch b j1 j2,
  accepts sch b j1 = true -> accepts sch b j2 = true ->
  exists r1 r2, project sch j1 = Some r1 /\ project sch j2 = Some r2 /\ jnorm r1 = jnorm r2.
Proof.
  intros sch b j1 j2 H1 H2.
  apply accepts_spec in H1 as (r1 & E1 & C1). apply accepts_spec in H2 as (r2 & E2 & C2).
  exists r1, r2. split; [exact E1|]. split; [exact E2|]. exact (cs_injective r1 r2 b C1 C2).
Qed.
Print Assumptions C12_same_signed_same_value.

(* and any change to an accepted document that alters the retained value - value of a scalar,
   member inserted, deleted or replaced, at any depth - makes it unacceptable *)
Theorem C12_mutation_rejected : forall sch b j j' r r',
  accepts sch b j = true -> project sch j = Some r -> project sch j' = Some r' ->
  jnorm r' <> jnorm r -> accepts sch b j' = false.
Proof.
  intros sch b j j' r r' H Pj Pj' Ne. destruct (accepts sch b j') eqn:A; [|reflexivity]. exfalso.
  destruct (C12_same_signed_same_value sch b j j' H A) as (x & y & Ex & Ey & En).
  apply Ne. congruence.
Qed.
Print Assumptions C12_mutation_rejected.

(* the underlying facts: canonical texts are self-delimiting, hence two objects with the same
   canonical form have the same sorted table of (member name, canonical form of the value) *)
Theorem C12_canonical_form_determines_members : forall m1 m2 es1 es2 b,
  canon_spec (fun s => s) (JObj m1) = Some b -> canon_spec (fun s => s) (JObj m2) = Some b ->
  spec_members (fun s => s) m1 = Some es1 -> spec_members (fun s => s) m2 = Some es2 ->
  sort_members es1 = sort_members es2.
Proof. exact cs_obj_entries_inj. Qed.
Print Assumptions C12_canonical_form_determines_members.

Theorem C12_canonical_text_self_delimiting : forall v1 v2 b1 b2 r1 r2,
  canon_spec (fun s => s) v1 = Some b1 -> canon_spec (fun s => s) v2 = Some b2 ->
  b1 ++ r1 = b2 ++ r2 -> delim r1 -> delim r2 -> b1 = b2 /\ r1 = r2.
Proof.
  intros v1 v2 b1 b2 r1 r2 H1 H2 E D1 D2. destruct (cs_det v1 b1 v2 b2 r1 r2 H1 H2 E D1 D2) as (Eb & Er & _).
  split; assumption.
Qed.
Print Assumptions C12_canonical_text_self_delimiting.

(* a document accepted as one role type is never accepted as another over the same signed bytes,
   whatever keys are authorised: the retained content carries the type's own tag *)
Theorem C12_roles_disjoint : forall s1 s2 b j1 j2,
  In s1 role_schemas -> In s2 role_schemas -> s1 <> s2 ->
  accepts s1 b j1 = true -> accepts s2 b j2 = true -> False.
Proof.
  intros s1 s2 b j1 j2 I1 I2 Ne.
  apply (tagged_disjoint s1 s2 (tag_of s1) (tag_of s2)); try (apply role_schemas_tagged; assumption).
  intro E. apply Ne. exact (NoDup_map_eq tag_of _ _ _ role_tags_distinct I1 I2 E).
Qed.
Print Assumptions C12_roles_disjoint.

(* nothing is lost of a document every level of which is covered (known member in its expected
   shape or catch-all; no member twice; tag = the type's; optional members not null; custom not
   empty): its retained content has the canonical form of the document itself, for every schema *)
Theorem C12_lossless : forall sch j, well_covered sch j = true ->
  exists r, project sch j = Some r /\ canon_spec (fun s => s) r = canon_spec (fun s => s) j.
Proof. exact lossless. Qed.
Print Assumptions C12_lossless.

(* hence such a document, signed as another implementation wrote it, verifies *)
Theorem C12_lossless_accepted : forall sch j b,
  well_covered sch j = true -> canon j = Some b -> accepts sch b j = true.
Proof.
  intros sch j b W C. destruct (lossless sch j W) as (r & P & E). apply accepts_spec. exists r.
  split; [exact P|]. rewrite E, <- canon_is_cs. exact C.
Qed.
Print Assumptions C12_lossless_accepted.

(* F7: the domain cannot be extended to unknown members inside delegations or a delegated-role
   entry: the member is dropped, and the document signed exactly as written is refused, while the
   same document without the member, or with the member at the top level, is accepted *)
Theorem C12_lossless_refuted :
  accepted_as_written targets_schema f7_plain = true
  /\ accepted_as_written targets_schema f7_in_delegations = false
  /\ accepted_as_written targets_schema f7_in_delegated_role = false
  /\ project targets_schema f7_in_delegations = project targets_schema f7_plain
  /\ project targets_schema f7_in_delegated_role = project targets_schema f7_plain
  /\ well_covered targets_schema f7_plain = true.
Proof. vm_compute. repeat split; reflexivity. Qed.
Print Assumptions C12_lossless_refuted.

(* these two are the only object levels of the four role types without a catch-all *)
Theorem C12_catch_all_levels :
  lossy_levels root_schema = [] /\ lossy_levels timestamp_schema = [] /\ lossy_levels snapshot_schema = []
  /\ lossy_levels targets_schema = [[n_delegations]; [n_delegations; n_roles; n_star]].
Proof. exact catch_all_levels. Qed.
Print Assumptions C12_catch_all_levels.

(* member order: the members of any object of a covered document, at any depth (inside carried-along
   unknown members too), may be permuted - names distinct - without changing acceptance ... *)
Theorem C12_reformat_accepted : forall s b j1 j2,
  well_covered s j1 = true -> reorder j1 j2 -> accepts s b j1 = accepts s b j2.
Proof.
  intros s b j1 j2 W R. apply reformat_accepted_covered; [exact W|exact (reorder_covered s j1 j2 R W)|].
  rewrite !canon_is_cs. apply reorder_cs, R.
Qed.
Print Assumptions C12_reformat_accepted.

(* ... because the re-ordered document is covered again and has the same canonical form *)
Theorem C12_reorder_stays_covered : forall s j1 j2,
  reorder j1 j2 -> well_covered s j1 = true -> well_covered s j2 = true.
Proof. exact reorder_covered. Qed.
Print Assumptions C12_reorder_stays_covered.

Theorem C12_reorder_same_canonical_form : forall v1 v2,
  reorder v1 v2 -> canon_spec (fun s => s) v1 = canon_spec (fun s => s) v2.
Proof. exact reorder_cs. Qed.
Print Assumptions C12_reorder_same_canonical_form.

(* more generally, within the covered domain acceptance is a function of the canonical form *)
Theorem C12_acceptance_depends_on_canonical_form : forall s b j1 j2,
  well_covered s j1 = true -> well_covered s j2 = true -> canon j1 = canon j2 ->
  accepts s b j1 = accepts s b j2.
Proof. exact reformat_accepted_covered. Qed.
Print Assumptions C12_acceptance_depends_on_canonical_form.
