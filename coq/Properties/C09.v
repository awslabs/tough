(* C09 - work and data taken from an untrusted repository are bounded.
   The lemmas are in Proofs/ClientP.v, Proofs/SitesP.v and Proofs/DelegBoundP.v. *)
From ToughV Require Export Model.Base Model.Pct Model.Sig Model.Deleg Model.Client.
From ToughV Require Import Proofs.ClientP Proofs.SitesP.
Export ClientP SitesP.
From ToughV Require Export Proofs.RollbackP Proofs.DelegLoadP Proofs.LivenessP Proofs.DelegBoundP.

(* a file is accepted only if its total length is within the limit it was fetched with, and with
   the expected digest if any: every metadata fetch of the client goes through [fetch] *)
Theorem C09_accepted_within_limit : forall srv name limit hash file,
  fetch srv name limit hash = FOk file ->
  lookup name srv = Some (Served file)
  /\ (exists n, f_len file = Some n /\ n <= limit)
  /\ (forall h, hash = Some h -> f_digest file = h).
Proof. exact fetch_ok. Qed.
Print Assumptions C09_accepted_within_limit.

(* a legitimate file within its bound is never refused for size *)
Theorem C09_size_refusal_is_justified : forall srv name limit hash,
  fetch srv name limit hash = FErr 2 ->
  exists f, lookup name srv = Some (Served f)
            /\ (f_len f = None \/ exists n, f_len f = Some n /\ limit < n).
Proof.
  intros srv name limit hash. unfold fetch. intro H.
  destruct (lookup name srv) as [[| |f]|] eqn:L; try discriminate.
  destruct (f_fail f =? 1); [discriminate|]. destruct (f_fail f =? 2); [discriminate|].
  exists f. split; [reflexivity|].
  destruct (f_len f) as [n|]; [|left; reflexivity].
  destruct (limit <? n) eqn:Lt; [right; exists n; split; [reflexivity|lia]|].
  destruct hash as [h|]; [|discriminate]. destruct (h =? f_digest f); discriminate.
Qed.
Print Assumptions C09_size_refusal_is_justified.

(* never more newer-root requests than max_root_updates, whatever the server answers and however the
   walk ends - for every limit, including limits that make original version + limit exceed 2^64 *)
Theorem C09_root_requests_bounded : forall fx fuel cfg srv r0 w res w',
  root_walk fx fuel cfg srv (r_version r0) r0 w = (res, w') ->
  exists names, w_log w' = w_log w ++ names
                /\ N.of_nat (length names) <= c_max_root_updates cfg
                /\ Forall (fun n => exists v, n = root_json v) names.
Proof.
  intros fx fuel cfg srv r0 w res w' H.
  destruct (root_walk_requests _ _ _ _ _ _ _ _ _ H) as (names & Hl & Hn & Ha).
  exists names. repeat split; auto. pose proof (update_limit_bound fx (r_version r0) (c_max_root_updates cfg)). lia.
Qed.
Print Assumptions C09_root_requests_bounded.

(* before the repair of F4 a limit of 2^64-1 wrapped around and no update was possible at all *)
Theorem C09_overflow_refuted :
  update_limit original 1 u64max = 0 /\ update_limit fixed 1 u64max = u64max.
Proof. split; vm_compute; reflexivity. Qed.
Print Assumptions C09_overflow_refuted.

(* which limit applies to which file of a successful cycle: C05_snapshot_pinned / C05_targets_pinned
   (pinned length when the parent lists one, configured limit otherwise); for the timestamp: *)
Theorem C09_timestamp_bounded : forall c s rp w',
  run_cycle fixed c s = (Ok rp, w') ->
  exists file, lookup name_timestamp (cy_srv c) = Some (Served file) /\ f_body file = CTs (rp_ts rp)
               /\ exists n, f_len file = Some n /\ n <= c_max_timestamp_size (cy_cfg c).
Proof.
  intros c s rp w' H.
  destruct (cycle_ok_facts _ _ _ _ H) as (r0 & l & t0 & s2 & s3 & s4 & F).
  destruct (cf_ts F) as ((file & Hf & Hb) & _). apply fetch_ok in Hf as (Hl & Hn & _). exists file. auto.
Qed.
Print Assumptions C09_timestamp_bounded.

(* Termination. The model runs the root walk and the recursive delegation loader on fuel and reports
   E_OutOfFuel when it is used up; the code has no such bound. A cycle never reports it - whatever the
   server answers, whatever is stored, whatever fault is injected - once the fuel exceeds
   max_root_updates and the number of entries of any snapshot the server can serve: the walk makes at
   most max_root_updates hops, and the delegation recursion is never deeper than the number of snapshot
   entries, because every role on the current path is listed there and (after the repair of F3) no
   role is its own ancestor. So every cycle ends with success or one of the other errors. *)
Theorem C09_cycle_terminates : forall c s res w',
  c_max_root_updates (cy_cfg c) < N.of_nat (c_fuel (cy_cfg c)) ->
  (forall name limit hash file sn, fetch (cy_srv c) name limit hash = FOk file -> f_body file = CSnap sn ->
                                   (length (sn_meta sn) < c_fuel (cy_cfg c))%nat) ->
  run_cycle fixed c s = (res, w') -> no_oof res.
Proof.
  intros c s res w' Hroot Hsnap H. unfold run_cycle in H. apply cycle_inv in H as (rR & w1 & E1 & H).
  apply (load_root_no_oof _ _ _ _ _ _ _ Hroot) in E1.
  destruct rR as [r|c0 a0]; [|destruct H as [-> _]; exact E1].
  destruct H as (rT & w2 & E2 & H). apply load_timestamp_inv in E2 as (_ & _ & L2).
  destruct rT as [ts|c0 a0]; [|destruct H as [-> _]; exact (stop_code_no_oof _ _ (load_doc_err L2))].
  destruct H as (rS & w3 & E3 & H). apply load_snapshot_inv in E3 as [(_ & -> & _)|(m & _ & _ & _ & L3)].
  { destruct H as [-> _]. cbn. discriminate. }
  destruct rS as [sn|c0 a0]; [|destruct H as [-> _]; exact (stop_code_no_oof _ _ (load_doc_err L3))].
  apply load_doc_ok in L3 as (((m' & file & _ & Hf & Hb & _) & _) & _).
  destruct H as (rG & E4 & H). apply load_targets_no_oof in E4; [|exact (Hsnap _ _ _ _ _ Hf Hb)].
  destruct rG as [t|c0 a0]; rewrite H; [exact I|exact E4].
Qed.
Print Assumptions C09_cycle_terminates.

Theorem C09_delegation_depth_bounded : forall cfg srv snap cs lim fuel dk rs anc w r w',
  anc_ok snap anc -> (length (sn_meta snap) + 4 < fuel + length anc)%nat ->
  load_delegs fixed cfg srv snap cs lim fuel dk rs anc w = (r, w') -> no_oof r.
Proof. exact load_delegs_term. Qed.
Print Assumptions C09_delegation_depth_bounded.

(* Requests. Every request of a cycle is one of: at most max_root_updates newer-root files, then at most
   three top-level files, then files of delegated roles that a snapshot served by the repository lists,
   each under the name its entry determines; when no delegated file is requested twice there are at
   most as many of them as that snapshot has entries. (A role reachable along two delegation paths is
   requested once per path: known finding shared_delegate, F15.) *)
Theorem C09_requests : forall c s res w',
  run_cycle fixed c s = (res, w') ->
  exists roots top dreqs,
    w_log w' = roots ++ top ++ dreqs
    /\ N.of_nat (length roots) <= c_max_root_updates (cy_cfg c) /\ Forall is_root_req roots
    /\ (length top <= 3)%nat
    /\ (dreqs = []
        \/ exists cs name limit hash file sn,
             fetch (cy_srv c) name limit hash = FOk file /\ f_body file = CSnap sn
             /\ Forall (deleg_req sn cs) dreqs
             /\ (NoDup dreqs -> (length dreqs <= length (sn_meta sn))%nat)).
Proof.
  intros c s res w' H. unfold run_cycle in H. apply cycle_inv in H as (rR & w1 & E1 & H).
  apply load_root_log in E1 as (roots & L1 & Hn & Hr). cbn [world0 w_log app] in L1.
  destruct rR as [r|c0 a0].
  2:{ destruct H as [_ ->]. exists roots, [], []. rewrite !app_nil_r. repeat split; auto. }
  destruct H as (rT & w2 & E2 & H). apply load_timestamp_inv in E2 as (L2 & _).
  destruct rT as [ts|c0 a0].
  2:{ destruct H as [_ ->]. exists roots, [name_timestamp], []. rewrite app_nil_r, L2, L1. repeat split; auto. }
  destruct H as (rS & w3 & E3 & H). pose proof (load_snapshot_log _ _ _ _ _ _ _ _ _ E3) as (l3 & L3 & Hl3).
  destruct rS as [sn|c0 a0].
  2:{ destruct H as [_ ->]. exists roots, (name_timestamp :: l3), []. rewrite app_nil_r, L3, L2, L1, <- app_assoc.
      repeat split; auto. cbn [length]. lia. }
  apply load_snapshot_inv in E3 as [(_ & E & _)|(m & _ & _ & _ & Ld)]; [discriminate|].
  apply load_doc_ok in Ld as (((m' & file & _ & Hf & Hb & _) & _) & _).
  destruct H as (rG & E4 & _). apply load_targets_log in E4 as (l4 & dreqs & L4 & Hl4 & F4).
  exists roots, ((name_timestamp :: l3) ++ l4), dreqs.
  split; [rewrite L4, L3, L2, L1; cbn [app]; rewrite <- !app_assoc; reflexivity|].
  split; [exact Hn|]. split; [exact Hr|]. split; [rewrite app_length; cbn [length]; lia|].
  right. exists (r_cs r). do 5 eexists. split; [exact Hf|]. split; [exact Hb|]. split; [exact F4|].
  intro ND. eapply distinct_requests_bounded; eassumption.
Qed.
Print Assumptions C09_requests.

(* non-vacuity of the fuel premises: the configuration the harness uses for ordinary scenarios *)
Example C09_fuel_premise_example :
  c_max_root_updates w_cfg < N.of_nat (c_fuel w_cfg).
Proof. vm_compute. reflexivity. Qed.
