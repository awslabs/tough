(* C16 - role names never steer file access outside the metadata directories, nor collide.
   The lemmas are in Proofs/PctP.v and Proofs/UrlP.v. *)
From ToughV Require Export Model.Base Model.Pct.
From ToughV Require Import Proofs.BaseP Proofs.PctP.
From ToughV Require Export Model.TName Model.Url.
From ToughV Require Import Proofs.UrlP.

Definition is_bytes (s : bytes) : Prop := Forall (fun c => c < 256) s.

Theorem C16_encode_injective : forall s1 s2, is_bytes s1 -> is_bytes s2 ->
  pct_encode s1 = pct_encode s2 -> s1 = s2.
Proof. exact pct_encode_injective. Qed.
Print Assumptions C16_encode_injective.

(* every file name derived from a role name is a plain directory entry: no '/', no NUL, no '\',
   not empty, not "." and not ".." *)
Theorem C16_plain_entry : forall cs v name, is_bytes name ->
  Forall (fun c => c <> 47 /\ c <> 0 /\ c <> 92) (role_filename cs v name)
  /\ role_filename cs v name <> [] /\ role_filename cs v name <> [46]
  /\ role_filename cs v name <> [46; 46].
Proof. exact role_filename_plain. Qed.
Print Assumptions C16_plain_entry.

(* two different role names never map to the same file name, whatever their versions *)
Theorem C16_names_injective : forall cs v1 v2 n1 n2, is_bytes n1 -> is_bytes n2 ->
  n1 <> n2 -> role_filename cs v1 n1 <> role_filename cs v2 n2.
Proof. exact role_filename_distinct. Qed.
Print Assumptions C16_names_injective.

(* under consistent snapshots the version is recoverable too: (name, version) -> file is injective *)
Theorem C16_versions_injective : forall v1 v2 n1 n2, is_bytes n1 -> is_bytes n2 ->
  role_filename true v1 n1 = role_filename true v2 n2 -> n1 = n2 /\ v1 = v2.
Proof.
  intros v1 v2 n1 n2 H1 H2 E. destruct (role_filename_injective _ _ _ _ _ H1 H2 E) as [A B]. auto.
Qed.
Print Assumptions C16_versions_injective.

Example C16_example :
  role_filename true 42 [97; 47; 98] = [52; 50; 46; 97; 37; 50; 70; 98; 46; 106; 115; 111; 110].
Proof. vm_compute. reflexivity. Qed.

(* The file a local client opens (Model/Url.v: Url::join on the metadata base URL, urlpath.rs / FilesystemTransport
   opening the URL path as it stands): the file name of a delegated role is a plain name - nothing in it is
   percent-encoded again, cut at '?' or '#', taken for a dot segment, a drive letter or a URL of its own - and what is
   opened is the entry of exactly that name directly inside the metadata directory. *)
Theorem C16_file_url_opens_entry : forall base cs v name,
  base <> [] -> forallb (fun c => negb (is_empty c)) base = true -> is_bytes name ->
  url_plain (role_filename cs v name) = true
  /\ url_join base (role_filename cs v name) = UPath (base ++ [role_filename cs v name]) false.
Proof.
  intros base cs v name Hne Hb Hn. pose proof (role_filename_url_plain cs v name Hn) as Hp. split; [exact Hp|].
  rewrite (url_join_plain base _ Hne Hb Hp), (put_comps_plain base _ Hp), (role_filename_one_comp cs v name Hn).
  reflexivity.
Qed.
Print Assumptions C16_file_url_opens_entry.

(* ... and for two different role names these are two different files: through a local transport, too, one role's
   metadata is never served as another's. *)
Theorem C16_distinct_roles_open_distinct_files : forall base cs v1 v2 n1 n2,
  base <> [] -> forallb (fun c => negb (is_empty c)) base = true -> is_bytes n1 -> is_bytes n2 -> n1 <> n2 ->
  url_join base (role_filename cs v1 n1) <> url_join base (role_filename cs v2 n2).
Proof. exact role_files_apart. Qed.
Print Assumptions C16_distinct_roles_open_distinct_files.
