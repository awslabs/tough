(* C15 - stored trust state survives crashes and I/O failures of the client.
   The lemmas are in Proofs/ClientP.v, Proofs/RollbackP.v and Proofs/LockoutP.v.
   Every cycle of a history carries a fault cy_fault = Some (k, kind): the k-th write operation on
   the datastore is hit - 1 killed before it, 2 killed in the middle of it, 3 killed after it,
   4 the write fails (ENOSPC/EIO). The rollback theorems quantify over all histories, hence over all
   fault positions and kinds in every cycle. *)
From ToughV Require Export Model.Base Model.Sig Model.Deleg Model.Client.
From ToughV Require Import Proofs.ClientP Proofs.RollbackP.
From ToughV Require Export Proofs.ClientP Proofs.DelegLoadP Proofs.LivenessP Proofs.LockoutP.
Export RollbackP.

Theorem C15_protection_survives : rollback_online_stmt fixed.
Proof. exact rollback_online_fixed. Qed.
Print Assumptions C15_protection_survives.

Theorem C15_targets_protection_survives : forall h s0 i j rp_i w_i rp_j w_j,
  (i < j)%nat ->
  nth_error (run_hist fixed h s0) i = Some (Ok rp_i, w_i) ->
  nth_error (run_hist fixed h s0) j = Some (Ok rp_j, w_j) ->
  (forall k c, (i < k <= j)%nat -> nth_error h k = Some c ->
               forall r, final_root fixed c = Some r -> auth_eq 2 (rp_root rp_i) r) ->
  tg_version (rp_targets rp_i) <= tg_version (rp_targets rp_j).
Proof. exact rollback_targets. Qed.
Print Assumptions C15_targets_protection_survives.

(* the mechanism: with write-to-temporary-and-rename a datastore write takes effect completely or not
   at all, whatever fault hits it, and it has taken effect whenever it reports success *)
Theorem C15_write_all_or_nothing : forall fx w full trunc r w',
  fx_atomic_store fx = true -> ds_op fx w full trunc = (r, w') ->
  (w_store w' = w_store w \/ w_store w' = full (w_store w))
  /\ (forall u, r = Ok u -> w_store w' = full (w_store w)).
Proof.
  intros fx w full trunc r w' Ha H. apply ds_op_inv in H as (_ & _ & W & R).
  split; [exact (wrote_atomic _ _ _ _ _ Ha W)|]. intros u ->. exact R.
Qed.
Print Assumptions C15_write_all_or_nothing.

(* with truncate-and-write (before the repair of F9) the protection was lost by a kill in the middle
   of a write *)
Theorem C15_truncate_and_write_refuted : ~ rollback_online_stmt not_atomic.
Proof.
  intro H.
  eassert (E : run_hist not_atomic f9_history store0 = _) by (vm_compute; reflexivity).
  eassert (E1 : nth_error (run_hist not_atomic f9_history store0) 0 = Some (Ok _, _)) by (rewrite E; reflexivity).
  eassert (E3 : nth_error (run_hist not_atomic f9_history store0) 2 = Some (Ok _, _)) by (rewrite E; reflexivity).
  destruct (H _ _ _ _ _ _ _ _ (le_S _ _ (le_n 1)) E1 E3) as [Hts _]; [|apply Hts; reflexivity].
  intros k c [Hk1 Hk2] Hn r Hr.
  destruct k as [|[|[|k]]]; [inversion Hk1| | |do 2 apply le_S_n in Hk2; inversion Hk2];
    injection Hn as <-; vm_compute in Hr; injection Hr as <-; apply online_same_refl.
Qed.
Print Assumptions C15_truncate_and_write_refuted.

Example C15_example : results fixed f9_history = [Some (1, 5); None; None]
                      /\ results not_atomic f9_history = [Some (1, 5); None; Some (1, 4)].
Proof. split; vm_compute; reflexivity. Qed.

(* Whatever happened before - any number of cycles, each killed before, in the middle of or after any
   datastore operation, or with a failing write - every document the datastore holds afterwards was in
   the initial datastore or was served to one of those cycles (no torn or invented state), and the
   recorded time is the clock value of one of them ... *)
Theorem C15_store_provenance : forall h s0,
  (forall x, st_ts (end_store fixed h s0) = Some (SDoc x) -> known_ts s0 h x)
  /\ (forall x, st_snap (end_store fixed h s0) = Some (SDoc x) -> known_snap s0 h x)
  /\ (forall x, st_tgt (end_store fixed h s0) = Some (SDoc x) -> known_tgt s0 h x)
  /\ (forall t, st_time (end_store fixed h s0) = Some (SDoc t) -> known_time s0 h t).
Proof. exact store_provenance. Qed.
Print Assumptions C15_store_provenance.

(* ... hence an interrupted or failed cycle never leaves the datastore in a state that makes the client
   refuse a valid repository that is at least as new: the next uninterrupted cycle against such a
   repository succeeds (same statement as C03_never_locked_out; histories range over all faults). *)
Theorem C15_never_locked_out : forall h s0 c r ts sn t0 t,
  cy_fault c = None ->
  (forall tm, known_time s0 h tm -> (tm <= cy_now c)%Z) ->
  final_root fixed c = Some r ->
  (c_enforce (cy_cfg c) = true -> (cy_now c <= r_expires r)%Z) ->
  ts_accepted (cy_cfg c) r (cy_srv c) (cy_now c) store0 ts ->
  snap_accepted (cy_cfg c) r ts (cy_srv c) (cy_now c) store0 sn ->
  tgt_accepted (cy_cfg c) r sn (cy_srv c) (cy_now c) store0 t0 ->
  tgt_tree (cy_cfg c) (cy_srv c) sn (r_cs r) t0 t -> validate t = true ->
  (forall x, known_ts s0 h x -> root_verify r 3 (ts_sigs x) = true -> ts_version x <= ts_version ts) ->
  (forall x, known_snap s0 h x -> root_verify r 1 (sn_sigs x) = true -> snap_rollback_ok x sn) ->
  (forall x, known_tgt s0 h x -> root_verify r 2 (tg_sigs x) = true -> tg_version x <= tg_version t0) ->
  exists w', run_cycle fixed c (end_store fixed h s0)
             = (Ok {| rp_root := r; rp_ts := ts; rp_snap := sn; rp_targets := t |}, w').
Proof. exact never_locked_out. Qed.
Print Assumptions C15_never_locked_out.
