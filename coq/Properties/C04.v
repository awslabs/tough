(* C04 - freeze protection: expired metadata is never trusted while enforcement is on.
   The lemmas are in Proofs/ClientP.v, Proofs/SitesP.v and Proofs/LivenessP.v. The clock is sampled
   once per operation in the model ([cy_now]); the code samples it at each of the four checks. *)
From ToughV Require Export Model.Base Model.Sig Model.Glob Model.Deleg Model.Client Model.Stream Model.Read.
From ToughV Require Import Proofs.ClientP Proofs.SitesP.
From ToughV Require Export Proofs.RollbackP Proofs.DelegLoadP Proofs.LivenessP.
Export ClientP SitesP.

(* success under enforcement: the final root, timestamp, snapshot and targets are all unexpired
   (roots that were only stepping stones are not examined: [path] has no expiry condition) *)
Theorem C04_load_safe : forall c s rp w',
  run_cycle fixed c s = (Ok rp, w') -> c_enforce (cy_cfg c) = true ->
  (cy_now c <= r_expires (rp_root rp))%Z /\ (cy_now c <= ts_expires (rp_ts rp))%Z
  /\ (cy_now c <= sn_expires (rp_snap rp))%Z /\ (cy_now c <= tg_expires (rp_targets rp))%Z.
Proof.
  intros c s rp w' H He.
  destruct (cycle_ok_facts _ _ _ _ H) as (r0 & l & t0 & s2 & s3 & s4 & F).
  pose proof (cf_root_fresh F) as Hr.
  destruct (cf_ts F) as (_ & _ & _ & Ets). destruct (cf_snap F) as (_ & _ & _ & Esn). destruct (cf_tgt F) as (_ & _ & _ & Etg).
  repeat split; auto. destruct (cf_loaded F) as [->|(rs & ->)]; [auto|rewrite tg_set_roles_expires; auto].
Qed.
Print Assumptions C04_load_safe.

(* a clock earlier than the time recorded in the datastore makes the cycle fail *)
Theorem C04_clock_back : forall c s res w',
  c_enforce (cy_cfg c) = true -> time_back (cy_now c) s = true ->
  run_cycle fixed c s = (res, w') -> exists code a, res = Err code a.
Proof.
  intros c s res w' He Hb H. destruct res as [rp|code a]; [|eauto]. exfalso.
  apply run_cycle_ok_inv in H as (r0 & w0 & w1 & _ & _ & _ & _ & Ew & Ef & _).
  apply root_walk_store in Ew as (Sw & _).
  apply finish_root_ok in Ef as (_ & Fresh & _).
  destruct (Fresh He) as [_ B]. rewrite Sw in B. cbn [world0 w_store] in B. congruence.
Qed.
Print Assumptions C04_clock_back.

(* with enforcement off no cycle fails for reasons of time, whatever variant of the code *)
Theorem C04_unsafe_never : forall fx c s code a w',
  c_enforce (cy_cfg c) = false -> run_cycle fx c s = (Err code a, w') ->
  code <> E_Expired /\ code <> E_TimeBack.
Proof.
  intros fx c s code a w' He H. pose proof (cycle_unsafe_no_time _ _ _ _ _ _ He H) as T.
  unfold time_code in T. apply orb_false_iff in T as [T1 T2].
  apply N.eqb_neq in T1, T2. auto.
Qed.
Print Assumptions C04_unsafe_never.

(* a check reports expiry only for a document that is expired *)
Theorem C04_no_false_expiry : forall fx cfg now e role w c a w',
  check_expired fx cfg now e role w = (Err c a, w') ->
  c_enforce cfg = true /\
  ((c = E_Expired /\ a = role /\ (e < now)%Z) \/ c = E_TimeBack \/ c = E_Killed \/ c = E_Datastore).
Proof. intros fx cfg now e role w c a w' H. apply check_expired_inv in H. apply H. Qed.
Print Assumptions C04_no_false_expiry.

(* reading (and hence saving) a target from a loaded repository: under enforcement it succeeds only
   strictly before the earliest of the four expirations, and not at all when the clock went back *)
Theorem C04_read_safe : forall (H : bytes -> N) fx cfg now rp tsrv n w r w',
  c_enforce cfg = true -> read_target H fx cfg now rp tsrv n w = (Ok r, w') ->
  (now < fst (earliest rp))%Z /\ time_back now (w_store w) = false.
Proof.
  intros H fx cfg now rp tsrv n w r w' He E. unfold read_target in E. rewrite He in E.
  destruct (sys_time fx now w) as [[t|c0 a0] w0] eqn:S; [|discriminate].
  apply sys_time_inv in S as (_ & _ & _ & -> & B & _). split; [|exact B].
  destruct (now <? fst (earliest rp))%Z eqn:L; [apply Z.ltb_lt, L|discriminate].
Qed.
Print Assumptions C04_read_safe.

(* the earliest expiration is at most each of the four *)
Theorem C04_earliest_is_min : forall rp,
  (fst (earliest rp) <= r_expires (rp_root rp))%Z /\ (fst (earliest rp) <= ts_expires (rp_ts rp))%Z
  /\ (fst (earliest rp) <= sn_expires (rp_snap rp))%Z /\ (fst (earliest rp) <= tg_expires (rp_targets rp))%Z.
Proof.
  intro rp. unfold earliest. cbn [tl fold_left fst].
  destruct (ts_expires (rp_ts rp) <? r_expires (rp_root rp))%Z eqn:E1; cbn [fst];
    match goal with |- context [(sn_expires (rp_snap rp) <? ?b)%Z] => destruct (sn_expires (rp_snap rp) <? b)%Z eqn:E2 end;
    cbn [fst];
    match goal with |- context [(tg_expires (rp_targets rp) <? ?b)%Z] => destruct (tg_expires (rp_targets rp) <? b)%Z eqn:E3 end;
    cbn [fst]; lia.
Qed.
Print Assumptions C04_earliest_is_min.

(* with ExpirationEnforcement::Unsafe, Repository::read_target makes no expiry check and does not touch the clock:
   the only error left to it is that of the transport *)
Theorem C04_read_unsafe : forall (H : bytes -> N) fx cfg now rp tsrv n w c a w',
  c_enforce cfg = false -> read_target H fx cfg now rp tsrv n w = (Err c a, w') -> c = E_Transport.
Proof.
  intros H fx cfg now rp tsrv n w c a w' He E. unfold read_target in E. rewrite He in E.
  destruct (find_target n (rp_targets rp)); [|discriminate].
  destruct (tlookup _ tsrv); inversion E; reflexivity.
Qed.
Print Assumptions C04_read_unsafe.

(* Conversely, nothing but those four expirations (and a clock that went back) can stop an uninterrupted cycle
   against a valid repository: the premises below mention the expiration of the final root, the timestamp, the
   snapshot and the targets only - the roots that were stepping stones of the walk (whatever [final_root] passed
   through) and the delegated roles are not asked for theirs. [ts_accepted] etc. state that the documents fit, verify
   and are not older than what the datastore holds, and contain "enforcement on -> now <= expires". *)
Theorem C04_only_these_expirations_matter : forall c s r ts sn t0 t,
  cy_fault c = None -> clock_fwd (cy_now c) s ->
  final_root fixed c = Some r ->
  (c_enforce (cy_cfg c) = true -> (cy_now c <= r_expires r)%Z) ->
  ts_accepted (cy_cfg c) r (cy_srv c) (cy_now c) s ts ->
  snap_accepted (cy_cfg c) r ts (cy_srv c) (cy_now c) s sn ->
  tgt_accepted (cy_cfg c) r sn (cy_srv c) (cy_now c) s t0 ->
  tgt_tree (cy_cfg c) (cy_srv c) sn (r_cs r) t0 t -> validate t = true ->
  exists w', run_cycle fixed c s = (Ok {| rp_root := r; rp_ts := ts; rp_snap := sn; rp_targets := t |}, w').
Proof. exact cycle_live. Qed.
Print Assumptions C04_only_these_expirations_matter.

(* a stepping stone that expired long ago: shipped root 1, root 2 expired at -1000, root 3 valid; enforcement on,
   clock 0: the cycle succeeds with root 3 *)
Definition c04_root (v : N) (exp : Z) : root :=
  {| r_version := v; r_expires := exp; r_cs := false; r_keys := [0; 1; 2; 3];
     r_roles := w_roles 3; r_sigs := [wk 0] |}.
Definition c04_cyc : cyc :=
  {| cy_cfg := {| c_max_root_size := 100; c_max_targets_size := 100; c_max_timestamp_size := 100;
                  c_max_snapshot_size := 100; c_max_root_updates := 10; c_enforce := true; c_fuel := 20 |};
     cy_shipped := CRoot (c04_root 1 100);
     cy_srv := [(root_json 2, w_file (CRoot (c04_root 2 (-1000)))); (root_json 3, w_file (CRoot (c04_root 3 100)));
                (name_timestamp, w_file (CTs (w_ts 5 5 3))); (name_snapshot, w_file (CSnap (w_snap 5)));
                (name_targets, w_file (CTargets w_targets))];
     cy_now := 0; cy_fault := None |}.
Example C04_expired_stepping_stone :
  match fst (run_cycle fixed c04_cyc store0) with
  | Ok rp => r_version (rp_root rp) = 3
  | Err _ _ => False
  end.
Proof. vm_compute. reflexivity. Qed.
