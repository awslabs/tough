(* C03 - rollback protection holds across update cycles sharing a datastore.
   The lemmas are in Proofs/RollbackP.v and Proofs/LockoutP.v. Histories are lists of cycles (each with
   its own shipped root, server, configuration, clock and injected fault) run by Model/Client.v's
   run_hist over one datastore, starting from an arbitrary datastore s0. *)
From ToughV Require Export Model.Base Model.Sig Model.Deleg Model.Client.
From ToughV Require Import Proofs.ClientP Proofs.RollbackP.
From ToughV Require Export Proofs.ClientP Proofs.DelegLoadP Proofs.LivenessP Proofs.LockoutP.
Export RollbackP.

(* If cycle i succeeded and a later cycle j succeeded, and every root that any cycle in between
   (and j itself) ended its root walk with authorises timestamp and snapshot exactly as the root
   trusted at i did, then timestamp version, snapshot version and the version the snapshot lists for
   targets.json did not decrease. *)
Theorem C03_rollback_online : rollback_online_stmt fixed.
Proof. exact rollback_online_fixed. Qed.
Print Assumptions C03_rollback_online.

(* The same for the top-level targets role, where only the targets authorisation matters. *)
Theorem C03_rollback_targets : forall h s0 i j rp_i w_i rp_j w_j,
  (i < j)%nat ->
  nth_error (run_hist fixed h s0) i = Some (Ok rp_i, w_i) ->
  nth_error (run_hist fixed h s0) j = Some (Ok rp_j, w_j) ->
  (forall k c, (i < k <= j)%nat -> nth_error h k = Some c ->
               forall r, final_root fixed c = Some r -> auth_eq 2 (rp_root rp_i) r) ->
  tg_version (rp_targets rp_i) <= tg_version (rp_targets rp_j).
Proof. exact rollback_targets. Qed.
Print Assumptions C03_rollback_targets.

(* "keys or threshold unchanged" implies the semantic condition used above *)
Theorem C03_unchanged_entry_suffices : forall role r r' rk,
  find_role role (r_roles r) = Some rk -> find_role role (r_roles r') = Some rk ->
  (forall k, In k (rk_keyids rk) -> memN k (r_keys r) = memN k (r_keys r')) ->
  role_keys r role = role_keys r' role /\ auth_eq role r r'.
Proof.
  intros role r r' rk H1 H2 Hk. split.
  - unfold role_keys. rewrite H1, H2. apply keys_upto_missing_ext, Hk.
  - intro sigs. unfold root_verify. rewrite H1, H2. unfold verify_distinct.
    rewrite (count_distinct_ext _ _ _ _ Hk). reflexivity.
Qed.
Print Assumptions C03_unchanged_entry_suffices.

(* a successful cycle records what it trusted *)
Theorem C03_success_recorded : forall c s rp w',
  run_cycle fixed c s = (Ok rp, w') ->
  st_root (w_store w') = Some (SDoc (rp_root rp))
  /\ st_ts (w_store w') = Some (SDoc (rp_ts rp))
  /\ st_snap (w_store w') = Some (SDoc (rp_snap rp))
  /\ root_verify (rp_root rp) 3 (ts_sigs (rp_ts rp)) = true
  /\ root_verify (rp_root rp) 1 (sn_sigs (rp_snap rp)) = true
  /\ final_root fixed c = Some (rp_root rp)
  /\ exists t0, st_tgt (w_store w') = Some (SDoc t0) /\ root_verify (rp_root rp) 2 (tg_sigs t0) = true
                /\ tg_version t0 = tg_version (rp_targets rp).
Proof. exact cycle_ok_recorded. Qed.
Print Assumptions C03_success_recorded.

(* before the repair of F5 the statement was false *)
Theorem C03_rollback_refuted : ~ rollback_online_stmt original.
Proof.
  intro H.
  eassert (E : run_hist original f5_history store0 = _) by (vm_compute; reflexivity).
  eassert (E1 : nth_error (run_hist original f5_history store0) 0 = Some (Ok _, _)) by (rewrite E; reflexivity).
  eassert (E2 : nth_error (run_hist original f5_history store0) 1 = Some (Ok _, _)) by (rewrite E; reflexivity).
  destruct (H _ _ _ _ _ _ _ _ (le_n 1) E1 E2) as [Hts _]; [|apply Hts; reflexivity].
  intros k c [Hk1 Hk2] Hn r Hr. destruct k as [|[|k]]; [inversion Hk1| |inversion Hk2 as [|m Hm]; inversion Hm].
  injection Hn as <-. vm_compute in Hr. injection Hr as <-. apply online_same_refl.
Qed.
Print Assumptions C03_rollback_refuted.

(* non-vacuity: a two-cycle history whose second cycle replays an older timestamp *)
Example C03_example : results fixed f5_history = [Some (2, 5); None]
                      /\ results original f5_history = [Some (2, 5); Some (2, 4)].
Proof. split; vm_compute; reflexivity. Qed.

(* "... so the protection never locks a client out of a repository that moves forward": after ANY
   history of cycles over one datastore (any servers, any shipped roots, any injected fault, from any
   initial datastore s0), an uninterrupted cycle whose clock is not behind any earlier one succeeds
   against every repository that is valid under the root its walk ends with (documents fit their
   limits and pins, verify, are unexpired; delegated roles form a loadable tree) and whose timestamp,
   snapshot (with its targets entry) and targets are not older than any document that verifies under
   that root and that the datastore initially held or any earlier cycle was served
   ([known_ts] etc.; [ts_accepted ... store0 ...] is acceptability seen from an empty datastore). *)
Theorem C03_never_locked_out : forall h s0 c r ts sn t0 t,
  cy_fault c = None ->
  (forall tm, known_time s0 h tm -> (tm <= cy_now c)%Z) ->
  final_root fixed c = Some r ->
  (c_enforce (cy_cfg c) = true -> (cy_now c <= r_expires r)%Z) ->
  ts_accepted (cy_cfg c) r (cy_srv c) (cy_now c) store0 ts ->
  snap_accepted (cy_cfg c) r ts (cy_srv c) (cy_now c) store0 sn ->
  tgt_accepted (cy_cfg c) r sn (cy_srv c) (cy_now c) store0 t0 ->
  tgt_tree (cy_cfg c) (cy_srv c) sn (r_cs r) t0 t -> validate t = true ->
  (forall x, known_ts s0 h x -> root_verify r 3 (ts_sigs x) = true -> ts_version x <= ts_version ts) ->
  (forall x, known_snap s0 h x -> root_verify r 1 (sn_sigs x) = true -> snap_rollback_ok x sn) ->
  (forall x, known_tgt s0 h x -> root_verify r 2 (tg_sigs x) = true -> tg_version x <= tg_version t0) ->
  exists w', run_cycle fixed c (end_store fixed h s0)
             = (Ok {| rp_root := r; rp_ts := ts; rp_snap := sn; rp_targets := t |}, w').
Proof. exact never_locked_out. Qed.
Print Assumptions C03_never_locked_out.

(* the premises are satisfiable: see never_locked_out_example in Proofs/LockoutP.v (a successful cycle,
   an interrupted one, then the newer repository) *)
Example C03_never_locked_out_example :
  exists w', run_cycle fixed (w_cyc false 6 3 None)
               (end_store fixed [w_cyc false 5 3 None; w_cyc false 6 3 (Some (1%nat, 2))] store0)
             = (Ok {| rp_root := w_root 1 3; rp_ts := w_ts 6 5 3; rp_snap := w_snap 5; rp_targets := w_targets |}, w').
Proof. exact never_locked_out_example. Qed.
