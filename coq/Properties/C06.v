(* C06 - target bytes delivered to the caller are exactly the signed content.
   The lemmas are in Proofs/StreamP.v. Streams are lists of items (a chunk or a
   transport error); an endless stream is covered because every statement holds for every list,
   hence for every finite prefix a caller can have consumed. H is SHA-256, uninterpreted. *)
From ToughV Require Export Model.Base Model.Stream Model.Sig Model.Glob Model.Deleg Model.Client Model.Read.
From ToughV Require Export Proofs.StreamP.
From ToughV Require Import Proofs.ClientP.

Theorem C06_sound : forall (H : bytes -> N) len dig s d,
  len < u64max' -> consume (fetch_sha256 H len dig s) = (d, true) ->
  H d = dig /\ N.of_nat (length d) <= len /\ d = chunk_bytes s /\ Forall is_chunk s.
Proof. exact fetch_sha256_sound. Qed.
Print Assumptions C06_sound.

Theorem C06_never_more : forall (H : bytes -> N) len dig s,
  len < u64max' -> N.of_nat (length (fst (consume (fetch_sha256 H len dig s)))) <= len.
Proof.
  intros H len dig s Hl. apply consume_limited; [exact Hl|]. destruct (_ =? dig); reflexivity.
Qed.
Print Assumptions C06_never_more.

Theorem C06_complete : forall (H : bytes -> N) len dig s,
  len < u64max' -> Forall is_chunk s -> N.of_nat (length (chunk_bytes s)) <= len -> H (chunk_bytes s) = dig ->
  consume (fetch_sha256 H len dig s) = (chunk_bytes s, true).
Proof. exact fetch_sha256_complete. Qed.
Print Assumptions C06_complete.

Theorem C06_other_content_errors : forall (H : bytes -> N) len dig s,
  len < u64max' ->
  (~ Forall is_chunk s \/ len < N.of_nat (length (chunk_bytes s)) \/ H (chunk_bytes s) <> dig) ->
  snd (consume (fetch_sha256 H len dig s)) = false.
Proof.
  (* a transport error, too many bytes, or other content: each contradicts what a clean end implies *)
  intros H len dig s Hl Hbad. destruct (consume (fetch_sha256 H len dig s)) as [d ok] eqn:E. cbn [snd].
  destruct ok; [|reflexivity]. exfalso.
  apply fetch_sha256_sound in E as (Hh & Hn & -> & F); [|exact Hl].
  destruct Hbad as [B|[B|B]]; [apply B, F|lia|apply B, Hh].
Qed.
Print Assumptions C06_other_content_errors.

(* the chunking of the transport stream is irrelevant *)
Theorem C06_chunking_irrelevant : forall (H : bytes -> N) len dig s1 s2,
  len < u64max' -> Forall is_chunk s1 -> Forall is_chunk s2 -> chunk_bytes s1 = chunk_bytes s2 ->
  N.of_nat (length (chunk_bytes s1)) <= len -> H (chunk_bytes s1) = dig ->
  consume (fetch_sha256 H len dig s1) = consume (fetch_sha256 H len dig s2).
Proof.
  intros H len dig s1 s2 Hl F1 F2 E Hn Hd.
  rewrite (fetch_sha256_complete H len dig s1 Hl F1 Hn Hd).
  rewrite E in Hn, Hd. rewrite (fetch_sha256_complete H len dig s2 Hl F2 Hn Hd). rewrite E. reflexivity.
Qed.
Print Assumptions C06_chunking_irrelevant.

(* read_target: without an authorised entry the answer is 'not found'; otherwise the stream is the
   checked one, fetched under the digest-prefixed name when the root says consistent snapshots *)
Theorem C06_read_target : forall (H : bytes -> N) fx cfg now rp tsrv n w r w',
  read_target H fx cfg now rp tsrv n w = (Ok r, w') ->
  match find_target n (rp_targets rp) with
  | None => r = RNotFound
  | Some ti => exists s, tlookup (if r_cs (rp_root rp) then Some (ti_digest ti) else None, tn_resolved n) tsrv = TStream s
                         /\ r = RStream (if r_cs (rp_root rp) then Some (ti_digest ti) else None, tn_resolved n)
                                        (fetch_sha256 H (ti_len ti) (ti_digest ti) s)
  end.
Proof.
  intros H fx cfg now rp tsrv n w r w' E. unfold read_target in E.
  match type of E with (match ?c with _ => _ end) = _ => destruct c as [[u|c0 a0] w0] end; [|discriminate].
  destruct (find_target n (rp_targets rp)) as [ti|]; [|injection E as <- _; reflexivity].
  destruct (tlookup _ tsrv) as [| |s]; try discriminate.
  injection E as <- _. exists s. split; reflexivity.
Qed.
Print Assumptions C06_read_target.

(* C04 (read side): under enforcement a read succeeds only strictly before the earliest expiry *)
Theorem C06_read_requires_unexpired : forall (H : bytes -> N) fx cfg now rp tsrv n w r w',
  c_enforce cfg = true -> read_target H fx cfg now rp tsrv n w = (Ok r, w') ->
  (now < fst (earliest rp))%Z.
Proof.
  intros H fx cfg now rp tsrv n w r w' He E. unfold read_target in E. rewrite He in E.
  destruct (sys_time fx now w) as [[t|c0 a0] w0] eqn:S; [|discriminate].
  apply sys_time_inv in S as (_ & _ & _ & -> & _).
  destruct (now <? fst (earliest rp))%Z eqn:L; [apply Z.ltb_lt, L|discriminate].
Qed.
Print Assumptions C06_read_requires_unexpired.

Example C06_example :
  consume (fetch_sha256 (fun b => N.of_nat (length b)) 5 4 [Chunk [1; 2]; Chunk []; Chunk [3; 4]]) = ([1; 2; 3; 4], true)
  /\ consume (fetch_sha256 (fun b => N.of_nat (length b)) 3 4 [Chunk [1; 2]; Chunk [3; 4]; Chunk [5]]) = ([1; 2], false).
Proof. exact stream_example. Qed.
