(* C19 - a cached (cloned) repository is a faithful, loadable copy.
   The lemmas are in Proofs/SitesP.v, Proofs/PctP.v, Proofs/SrvExtP.v, Proofs/CacheP.v, Proofs/StreamP.v,
   Proofs/TNameP.v and Proofs/UrlP.v; C19_cached_target_reads_back also uses C06_read_target of Properties/C06.v.
   Proved here: the end-to-end statement on the model - a client holding the same shipped root that
   reads the copy (the files the unchanged source serves under exactly the names the cache writes)
   loads the very same repository record, root chain included; and without the root chain when its
   shipped root is the trusted root (C19_copy_loads, C19_copy_loads_no_chain) - together with what it
   rests on: the outcome of a cycle depends on the server only through the answers to its requests
   (C19_server_extensionality); the names the cache writes are the names under which the client fetched
   the documents it trusts, they are plain directory entries, the root chain is complete, and (through
   C06/C08) cached targets are verified and confined. That the real cache writes those files and the real
   client behaves as the model is established by the correspondence runs. *)
From ToughV Require Export Model.Base Model.Pct Model.Sig Model.Glob Model.Deleg Model.Client Model.Cache.
From ToughV Require Import Proofs.BaseP Proofs.PctP Proofs.SitesP.
From ToughV Require Export Proofs.ClientP Proofs.SrvExtP Proofs.CacheP.
From ToughV Require Export Model.Stream Model.Read Model.TName Model.Save Proofs.StreamP Proofs.TNameP.
From ToughV Require Import Properties.C06.
From ToughV Require Export Model.Url.
From ToughV Require Import Proofs.UrlP.

(* the files the cache copies as timestamp, snapshot and targets are - on an unchanged server - the
   very files whose contents the client trusts *)
Theorem C19_top_level_files : forall c s rp w',
  run_cycle fixed c s = (Ok rp, w') ->
  (exists f, lookup name_timestamp (cy_srv c) = Some (Served f) /\ f_body f = CTs (rp_ts rp))
  /\ (exists f, lookup (cache_snapshot_name rp) (cy_srv c) = Some (Served f) /\ f_body f = CSnap (rp_snap rp))
  /\ (exists f t0, lookup (cache_targets_name rp) (cy_srv c) = Some (Served f) /\ f_body f = CTargets t0
                   /\ loaded_from t0 (rp_targets rp)).
Proof.
  intros c s rp w' H.
  destruct (cycle_ok_facts _ _ _ _ H) as (r0 & l & t0 & s2 & s3 & s4 & F).
  destruct (cf_ts F) as ((f1 & F1 & B1) & _). destruct (cf_snap F) as ((m2 & f2 & M2 & F2 & B2 & V2) & _).
  destruct (cf_tgt F) as ((m3 & f3 & M3 & F3 & B3 & V3) & _). pose proof (cf_loaded F) as Hl.
  apply fetch_ok in F1 as (L1 & _). apply fetch_ok in F2 as (L2 & _). apply fetch_ok in F3 as (L3 & _).
  split; [exists f1; auto|]. split.
  - exists f2. unfold cache_snapshot_name. rewrite V2. auto.
  - exists f3, t0. unfold cache_targets_name.
    assert (tg_version (rp_targets rp) = m_version m3) as ->.
    { destruct Hl as [->|(rs & ->)]; [exact V3|rewrite tg_set_roles_version; exact V3]. }
    auto.
Qed.
Print Assumptions C19_top_level_files.

(* every metadata file name the cache writes for a delegated role is a plain entry of the metadata
   directory (no '/', no NUL, no '\', not "." or "..") and different roles get different names *)
Theorem C19_delegated_names_plain : forall rp name f,
  Forall (fun c => c < 256) name -> cache_delegated_name rp name = Some f ->
  Forall (fun c => c <> 47 /\ c <> 0 /\ c <> 92) f /\ f <> [] /\ f <> [46] /\ f <> [46; 46].
Proof.
  intros rp name f Hb H. unfold cache_delegated_name in H.
  destruct (r_cs (rp_root rp)).
  - destruct (lookup (json_of name) (sn_meta (rp_snap rp))) as [m|]; [|discriminate].
    injection H as <-. apply role_filename_plain, Hb.
  - injection H as <-. apply role_filename_plain, Hb.
Qed.
Print Assumptions C19_delegated_names_plain.

Theorem C19_delegated_names_distinct : forall rp n1 n2 f1 f2,
  Forall (fun c => c < 256) n1 -> Forall (fun c => c < 256) n2 -> n1 <> n2 ->
  cache_delegated_name rp n1 = Some f1 -> cache_delegated_name rp n2 = Some f2 -> f1 <> f2.
Proof.
  intros rp n1 n2 f1 f2 B1 B2 Hne H1 H2. unfold cache_delegated_name in *.
  destruct (r_cs (rp_root rp)).
  - destruct (lookup (json_of n1) _) as [m1|]; [|discriminate]. destruct (lookup (json_of n2) _) as [m2|]; [|discriminate].
    injection H1 as <-. injection H2 as <-. apply role_filename_distinct; assumption.
  - injection H1 as <-. injection H2 as <-. apply role_filename_distinct; assumption.
Qed.
Print Assumptions C19_delegated_names_distinct.

(* when the root chain is requested every version from 1 to the trusted one is written *)
Theorem C19_root_chain_complete : forall rp v, 1 <= v -> v <= r_version (rp_root rp) ->
  In (root_json v) (cache_names rp true).
Proof. exact cache_names_roots. Qed.
Print Assumptions C19_root_chain_complete.

(* the outcome of an update cycle - result and final world, datastore and request log included - depends
   on the server only through its answers to the requests of the cycle (every variant of the model) *)
Theorem C19_server_extensionality : forall fx c srv' s res w',
  run_cycle fx c s = (res, w') ->
  (forall n, In n (w_log w') -> same_answer (cy_srv c) srv' n) ->
  run_cycle fx {| cy_cfg := cy_cfg c; cy_shipped := cy_shipped c; cy_srv := srv'; cy_now := cy_now c;
                  cy_fault := cy_fault c |} s = (res, w').
Proof. intros fx c srv' s res w'. unfold run_cycle. apply cycle_ext. Qed.
Print Assumptions C19_server_extensionality.

(* the copy serves exactly the files the source serves under the cached names *)
Theorem C19_copy_serves : forall srv names n lim h,
  fetch (cache_srv srv names) n lim h = if mem_bytes n names then fetch srv n lim h else FErr 0.
Proof. exact fetch_cache_srv. Qed.
Print Assumptions C19_copy_serves.

(* a successful cycle, from any datastore, can be repeated on the cached copy (root chain included) by a
   client with the same shipped root, configuration and clock, an empty datastore and no interruption:
   it loads the same root, timestamp, snapshot and targets with the whole loaded delegation tree *)
Theorem C19_copy_loads : forall c s rp w',
  run_cycle fixed c s = (Ok rp, w') ->
  exists w'', run_cycle fixed (copy_cycle c (cy_shipped c) (cache_names rp true)) store0 = (Ok rp, w'').
Proof. exact copy_loads. Qed.
Print Assumptions C19_copy_loads.

(* without the root chain, for a client whose shipped root is the root the first client trusted *)
Theorem C19_copy_loads_no_chain : forall c s rp w',
  run_cycle fixed c s = (Ok rp, w') ->
  exists w'', run_cycle fixed (copy_cycle c (CRoot (rp_root rp)) (cache_names rp false)) store0 = (Ok rp, w'').
Proof. exact copy_loads_no_chain. Qed.
Print Assumptions C19_copy_loads_no_chain.

(* non-vacuity: a concrete repository with a two-level delegation tree, consistent snapshots, a root
   chain of two versions and a file 3.root.json (a root of the version already trusted) that stops the
   walk on the source and is not in the copy *)
Example C19_copy_loads_example :
  exists rp w',
    run_cycle fixed ex_cyc ex_store = (Ok rp, w')
    /\ r_version (rp_root rp) = 2 /\ role_names (rp_targets rp) = [[97]; [98]]
    /\ find_target ex_tname (rp_targets rp) <> None
    /\ In (root_json 3) (map fst (cy_srv ex_cyc)) /\ ~ In (root_json 3) (cache_names rp true)
    /\ length (cache_srv (cy_srv ex_cyc) (cache_names rp true)) = 6%nat
    /\ length (cache_srv (cy_srv ex_cyc) (cache_names rp false)) = 5%nat
    /\ (exists w'', run_cycle fixed (copy_cycle ex_cyc (cy_shipped ex_cyc) (cache_names rp true)) store0 = (Ok rp, w''))
    /\ (exists w'', run_cycle fixed (copy_cycle ex_cyc (CRoot (rp_root rp)) (cache_names rp false)) store0 = (Ok rp, w'')).
Proof. exact copy_loads_example. Qed.
Print Assumptions C19_copy_loads_example.

(* The targets half: a target the cache stored (Repository::cache_target = save_target, digest-prefixed under
   consistent snapshots) is, at its destination inside the targets directory, exactly the content the signed
   metadata names - byte for byte what the source served - every other file is untouched, and reading the stored
   file back through the verifying adapters delivers it intact whatever transport and chunking the copy is read
   with: "every requested target reads back byte-identical to the original". *)
Theorem C19_cached_target_reads_back : forall (H : bytes -> N) fx cfg now rp tsrv n prefix outdir f w f' w' ti,
  save_target H fx cfg now rp tsrv n prefix outdir f w = (Ok tt, f', w') ->
  find_target n (rp_targets rp) = Some ti -> ti_len ti < u64max' ->
  exists dest d,
    save_path outdir (if prefix then ti_hex ti ++ [46] ++ tn_resolved n else tn_resolved n) = inr dest
    /\ fs_get dest (fs_files f') = Some d
    /\ H d = ti_digest ti /\ N.of_nat (length d) <= ti_len ti
    /\ (exists s, tlookup (if r_cs (rp_root rp) then Some (ti_digest ti) else None, tn_resolved n) tsrv = TStream s
                  /\ d = chunk_bytes s)
    /\ (forall p, paths_eqb p dest = false -> fs_get p (fs_files f') = fs_get p (fs_files f))
    /\ (forall chunks, Forall is_chunk chunks -> chunk_bytes chunks = d ->
                       consume (fetch_sha256 H (ti_len ti) (ti_digest ti) chunks) = (d, true)).
Proof.
  intros H fx cfg now rp tsrv n prefix outdir f w f' w' ti Hs Hf Hl. unfold save_target in Hs. rewrite Hf in Hs.
  assert (Hfn : (if prefix then Some (ti_hex ti ++ [46] ++ tn_resolved n) else Some (tn_resolved n))
                = Some (if prefix then ti_hex ti ++ [46] ++ tn_resolved n else tn_resolved n))
    by (destruct prefix; reflexivity).
  rewrite Hfn in Hs.
  destruct (save_path outdir _) as [[|]|dest]; try discriminate.
  destruct (read_target H fx cfg now rp tsrv n w) as [[[|req s]|c a] w1] eqn:Hr; try discriminate.
  cbv zeta in Hs. destruct (consume s) as [d ok] eqn:Ec. change (snd (d, ok)) with ok in Hs. destruct ok; [|discriminate].
  apply C06_read_target in Hr. rewrite Hf in Hr. destruct Hr as (raw & Hlk & [= _ ->]).
  (* C06: what was consumed is the signed content; C08: the save put exactly that at the destination *)
  destruct (fetch_sha256_sound H (ti_len ti) (ti_digest ti) raw d Hl Ec) as (Hh & Hlen & Hd & _).
  assert (Ef : fs_files f' = fs_put dest d (fs_files f)).
  { injection Hs as <- _. rewrite fs_run_save, Ec, (proj1 (consume_ok _ _ Ec)). cbn [snd andb].
    rewrite (proj2 (Nat.leb_le _ _) (le_n _)). reflexivity. }
  exists dest, d. rewrite Ef.
  split; [reflexivity|]. split; [apply fs_get_put_same|]. split; [exact Hh|]. split; [exact Hlen|].
  split; [exists raw; auto|]. split; [intros p Hpn; apply fs_get_put_other, Hpn|].
  intros chunks Fc <-. apply fetch_sha256_complete; assumption.
Qed.
Print Assumptions C19_cached_target_reads_back.

(* ... and a client whose targets base URL names the directory the cache stored it in finds it there, when its file
   name is plain (Model/Url.v: Url::join + FilesystemTransport against Path::join; the complement of [url_plain] is
   the known class url_encoded_target_name). *)
Theorem C19_cached_target_served : forall (H : bytes -> N) fx cfg now rp tsrv n prefix outdir f w f' w' ti,
  save_target H fx cfg now rp tsrv n prefix outdir f w = (Ok tt, f', w') ->
  find_target n (rp_targets rp) = Some ti -> ti_len ti < u64max' ->
  outdir <> [] -> forallb (fun c => negb (is_empty c)) outdir = true ->
  url_plain (if prefix then ti_hex ti ++ [46] ++ tn_resolved n else tn_resolved n) = true ->
  exists d,
    fs_fetch (fs_files f') outdir (if prefix then ti_hex ti ++ [46] ++ tn_resolved n else tn_resolved n) = FsFound d
    /\ H d = ti_digest ti /\ N.of_nat (length d) <= ti_len ti
    /\ (exists s, tlookup (if r_cs (rp_root rp) then Some (ti_digest ti) else None, tn_resolved n) tsrv = TStream s
                  /\ d = chunk_bytes s).
Proof.
  intros H fx cfg now rp tsrv n prefix outdir f w f' w' ti Hs Hf Hl Hone Ho Hp.
  destruct (C19_cached_target_reads_back H fx cfg now rp tsrv n prefix outdir f w f' w' ti Hs Hf Hl)
    as (dest & d & Hsp & Hget & Hd & Hlen & Hsrv & _).
  exists d. split; [|split; [exact Hd|split; [exact Hlen|exact Hsrv]]].
  rewrite (fs_fetch_plain _ outdir _ Hone Ho Hp), <- (save_path_put _ _ _ Hsp), Hget. reflexivity.
Qed.
Print Assumptions C19_cached_target_served.
