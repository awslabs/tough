(* C17 - updating a repository preserves everything that was not deliberately changed.
   The lemmas are in Proofs/EditorP.v, Proofs/SchemaP.v and Proofs/EdOpsP.v. *)
From ToughV Require Export Model.Base Model.Editor.
From ToughV Require Export Proofs.EditorP.
From ToughV Require Export Model.Json Model.CJson Model.Schema Proofs.CJsonP Proofs.CJsonInjP Proofs.SchemaP.
From ToughV Require Export Model.Sig Model.Glob Model.Deleg Model.Client Model.EditorRT Model.EdOps Proofs.EdOpsP.

(* RepositoryEditor loaded from a repository and updated with [added]: the delegations and the unknown members of
   targets, snapshot and timestamp are carried over as they were, and a target name is bound to the last entry
   added under it, else to what it was bound to (snapshot members: after the repair of F10) *)
Theorem C17_preserved : forall v added,
  let v' := update true v added in
  rv_deleg v' = rv_deleg v
  /\ rv_targets_extra v' = rv_targets_extra v
  /\ rv_snapshot_extra v' = rv_snapshot_extra v
  /\ rv_timestamp_extra v' = rv_timestamp_extra v
  /\ (forall name, get name (rv_entries v') =
                   match last_added name added None with Some e => Some e | None => get name (rv_entries v) end).
Proof. intros v added. cbn. repeat split. intro name. apply get_merge. Qed.
Print Assumptions C17_preserved.

Theorem C17_snapshot_extra_refuted :
  exists v added, rv_snapshot_extra (update false v added) <> rv_snapshot_extra v.
Proof.
  (* before the repair of F10 the unrecognised members of snapshot.json were lost *)
  exists {| rv_entries := []; rv_deleg := 0; rv_targets_extra := []; rv_snapshot_extra := [([120], 1)];
            rv_timestamp_extra := [] |}, [].
  cbn. discriminate.
Qed.
Print Assumptions C17_snapshot_extra_refuted.

(* What "passing through" means at the level of documents: from_repo parses every role's file into the typed
   representation and sign serialises it again. For a document every level of which is covered (known members in
   their expected shape, or a catch-all for unknown ones; Model/Schema.v, the subject of C12) the retained content
   has the canonical form of the document itself: no member - known, unknown top-level member, custom data of a
   target - is dropped or altered by parse-and-reserialise, in any of the four role types. The only object levels
   without a catch-all are [delegations] and a delegated-role entry (known finding F7 of C12). *)
Theorem C17_reserialise_lossless : forall sch j, well_covered sch j = true ->
  exists r, project sch j = Some r /\ canon_spec (fun s => s) r = canon_spec (fun s => s) j.
Proof. exact lossless. Qed.
Print Assumptions C17_reserialise_lossless.

Theorem C17_lossy_levels :
  lossy_levels root_schema = [] /\ lossy_levels timestamp_schema = [] /\ lossy_levels snapshot_schema = []
  /\ lossy_levels targets_schema = [[n_delegations]; [n_delegations; n_roles; n_star]].
Proof. exact catch_all_levels. Qed.
Print Assumptions C17_lossy_levels.

(* The same on the model of the editing operations (Model/EdOps.v, the state machine of RepositoryEditor and
   TargetsEditor that C10 runs against the real editor): an update - from_repo on a loaded repository, then any
   number of additions, removals, new versions and expirations, then sign - hands to sign the delegation
   structure it loaded (every delegated role with its header, document, own delegations and signatures: the
   children of the top node, unchanged) and the key table of the top-level delegations, and changes the
   top-level targets by exactly the additions and removals made. *)
Theorem C17_update_preserves_tree : forall r st top st1 seg keys ss,
  rd_top st = Some top ->
  ed_step r st OpFromRepo = Some st1 ->
  forallb plain seg = true ->
  ed_at_sign (fst (ed_run r st1 seg)) keys = Some ss ->
  ss_children ss = en_children top
  /\ ss_dkeys ss = en_dkeys top
  /\ forall n, lookup_target n (e_entries (ss_edit ss)) = spec_targets seg (fun x => lookup_target x (en_entries top)) n.
Proof.
  intros r st top st1 seg keys ss Htop H1 Hp Hss. cbn [ed_step] in H1. rewrite Htop in H1. injection H1 as E1.
  assert (rd_te st1 = Some (ted_from name_targets_role HRoot top)) as Hte1 by (rewrite <- E1; reflexivity).
  assert (forallb stays seg = true) as Hs.
  { apply forallb_forall. intros o Ho. apply plain_stays. rewrite forallb_forall in Hp. exact (Hp o Ho). }
  destruct (run_view r st1 _ (fun x => lookup_target x (en_entries top)) seg Hte1 I (fun _ => eq_refl) Hs)
    as [te' V].
  destruct (on_deleg V Hp) as [Kd Kn].
  apply at_sign_inv in Hss as (te & Hte & _ & _ & Hent & -> & -> & _). rewrite (on_te V) in Hte. injection Hte as <-.
  rewrite (on_children V), Kd, Kn, Hent. cbn [ted_from te_children te_dkeys te_new_roles]. rewrite app_nil_r.
  repeat split. exact (on_lookup V).
Qed.
Print Assumptions C17_update_preserves_tree.
