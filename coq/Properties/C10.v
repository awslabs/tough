(* C10 - whatever the repository editor signs and writes, the client loads back unchanged.
   The lemmas are in Proofs/EditorTreeP.v (sign and write for a tree of delegated roles at any depth; a repository
   without delegated roles is the empty tree), Proofs/EdOpsP.v (the editing operations as a state machine) and
   Proofs/UrlP.v (where a target file is put and looked for). The cross-party flow (update_delegated_targets) is
   the operation OpUpdate of that state machine: its acceptance condition is C10_update_checked, and programs
   that contain it are covered by C10_program_roundtrip like any other. *)
From ToughV Require Export Model.Base Model.Pct Model.Sig Model.Glob Model.Deleg Model.Client Model.EditorRT Model.EdOps.
From ToughV Require Import Proofs.BaseP Proofs.SigP Proofs.EditorTreeP Proofs.EdOpsP.
Export EditorTreeP.
Export EdOpsP.
From ToughV Require Export Model.TName Model.Url.
From ToughV Require Import Proofs.TNameP Proofs.UrlP.

(* editor o client = identity: if the editor's sign step succeeds, a client holding the same root
   loads exactly the targets document, snapshot and timestamp the editor built - for every key
   set that met the thresholds, every version, every set of entries, every file length/digest
   function, both consistent-snapshot settings, enforcement on or off *)
Theorem C10_roundtrip_partial : forall (len_of dig_of : content -> N) (r : root) (e : edit) (keys : list N)
    (cfg : config) (now : Z) tg sn ts srv,
  ed_sign len_of dig_of r e keys = Some (tg, sn, ts, srv) ->
  root_verify r 0 (r_sigs r) = true ->
  NoDup keys -> (forall k, In k keys -> memN k (r_keys r) = true) ->
  r_version r < update_limit fixed (r_version r) (c_max_root_updates cfg) ->
  (1 <= c_fuel cfg)%nat ->
  len_of (CTs ts) <= c_max_timestamp_size cfg ->
  (now <= r_expires r)%Z -> (now <= e_tsexp e)%Z -> (now <= e_sexp e)%Z -> (now <= e_texp e)%Z ->
  exists w,
    run_cycle fixed {| cy_cfg := cfg; cy_shipped := CRoot r; cy_srv := srv; cy_now := now; cy_fault := None |} store0
    = (Ok {| rp_root := r; rp_ts := ts; rp_snap := sn; rp_targets := tg |}, w).
Proof.
  intros len_of dig_of r e keys cfg now tg sn ts srv Hs Vr Hnd Hkt Hlim Hfuel. rewrite ed_sign_flat in Hs.
  apply (editor_client_roundtrip_tree _ _ _ _ _ _ _ _ _ _ _ _ _ Hs Vr Hnd Hkt);
    [constructor|intros _ []|exact Hlim|exact Hfuel].
Qed.
Print Assumptions C10_roundtrip_partial.

(* the written snapshot and timestamp describe the written files exactly *)
Theorem C10_meta_exact : forall (len_of dig_of : content -> N) r e keys tg sn ts srv,
  ed_sign len_of dig_of r e keys = Some (tg, sn, ts, srv) ->
  sn_meta sn = [(name_targets, {| m_version := tg_version tg; m_length := Some (len_of (CTargets tg));
                                  m_hash := Some (dig_of (CTargets tg)) |})]
  /\ ts_meta ts = [(name_snapshot, {| m_version := sn_version sn; m_length := Some (len_of (CSnap sn));
                                     m_hash := Some (dig_of (CSnap sn)) |})]
  /\ tg_entries tg = e_entries e /\ tg_version tg = e_tv e /\ sn_version sn = e_sv e /\ ts_version ts = e_tsv e
  /\ tg_expires tg = e_texp e /\ sn_expires sn = e_sexp e /\ ts_expires ts = e_tsexp e.
Proof.
  intros len_of dig_of r e keys tg sn ts srv H. rewrite ed_sign_flat in H.
  destruct (ed_sign_tree_inv _ _ _ _ _ _ _ _ _ _ _ H) as (st & ss & sts & _ & _ & -> & -> & -> & _).
  repeat split.
Qed.
Print Assumptions C10_meta_exact.

(* the editor refuses to sign when the keys offered do not meet a role's threshold *)
Theorem C10_sign_needs_threshold : forall r role keys sigs,
  signed_role r role keys = Some sigs ->
  exists rk, find_role role (r_roles r) = Some rk /\ rk_threshold rk <= N.of_nat (length sigs).
Proof.
  intros r role keys sigs H. destruct (signed_role_inv _ _ _ _ H) as (rk & F & _ & T). eauto.
Qed.
Print Assumptions C10_sign_needs_threshold.

(* incoming metadata for a delegated role is incorporated only if it carries valid signatures of at
   least the delegating role's threshold of distinct authorised keys and does not lower the version *)
Theorem C10_incoming_checked : forall dkeys roles name current incoming,
  incorporate fixed dkeys roles name current incoming = true ->
  (exists h, find_hdr name roles = Some h
             /\ spec_accept dkeys (dh_keyids h) (dh_threshold h) (tg_sigs incoming) = true)
  /\ current <= tg_version incoming.
Proof.
  intros dkeys roles name current incoming H. unfold incorporate, deleg_verify in H.
  apply andb_true_iff in H as [H1 H2]. split; [|lia].
  destruct (find_hdr name roles) as [h|]; [|discriminate]. exists h. split; [reflexivity|].
  cbn [fixed fx_deleg_distinct] in H1. rewrite verify_distinct_spec in H1. exact H1.
Qed.
Print Assumptions C10_incoming_checked.

(* editor o client = identity for a repository with a tree of delegated roles: if sign + write succeed
   (ed_sign_tree: every delegated role verifies under its delegating role's keys and threshold, none
   bears a top-level role name, every target is reachable through the path patterns), a client
   holding the same root loads exactly the timestamp, the snapshot and the targets document with
   the whole tree the editor built - for every tree shape and depth, every key table, threshold,
   path set, version and expiration of every role, every file length/digest function, both
   consistent-snapshot settings. Side conditions on role names: made of bytes, and - when file names
   carry no version - no role is called "<root version + 1>.root" (it cannot be dropped:
   C10_next_root_name_refuted); pairwise distinct over the whole tree, which after the repair of F19 sign
   checks itself (C10_sign_implies_distinct_names; without the check: C10_distinct_names_refuted). No limit
   is needed for the role files (the snapshot pins their lengths), no expiration for delegated roles (the
   client does not check it when loading). *)
Theorem C10_roundtrip_delegated : forall (len_of dig_of : content -> N) (r : root) (e : edit) (dkeys : list N)
    (ch : list enode) (keys : list N) (cfg : config) (now : Z) tg sn ts srv,
  ed_sign_tree len_of dig_of r e dkeys ch keys = Some (tg, sn, ts, srv) ->
  root_verify r 0 (r_sigs r) = true ->
  NoDup keys -> (forall k, In k keys -> memN k (r_keys r) = true) ->
  NoDup (map en_name (all_roles ch)) ->
  Forall (fun n => Forall (fun c => c < 256) (en_name n)) (all_roles ch) ->
  (r_cs r = false -> ~ In (dec (r_version r + 1) ++ [46; 114; 111; 111; 116]) (map en_name (all_roles ch))) ->
  r_version r < update_limit fixed (r_version r) (c_max_root_updates cfg) ->
  (tree_depth ch <= c_fuel cfg)%nat ->
  len_of (CTs ts) <= c_max_timestamp_size cfg ->
  (now <= r_expires r)%Z -> (now <= e_tsexp e)%Z -> (now <= e_sexp e)%Z -> (now <= e_texp e)%Z ->
  exists w,
    run_cycle fixed {| cy_cfg := cfg; cy_shipped := CRoot r; cy_srv := srv; cy_now := now; cy_fault := None |} store0
    = (Ok {| rp_root := r; rp_ts := ts; rp_snap := sn; rp_targets := tg |}, w).
Proof.
  (* the premise on distinct names is not used (sign has checked it); the other premises are those of the lemma,
     which spells them with [small] and [next_root_role] *)
  intros len_of dig_of r e dkeys ch keys cfg now tg sn ts srv Hs Vr Hnd Hkt _.
  exact (editor_client_roundtrip_tree len_of dig_of r e dkeys ch keys cfg now tg sn ts srv Hs Vr Hnd Hkt).
Qed.
Print Assumptions C10_roundtrip_delegated.

(* the targets document is what was put in with the tree attached; the snapshot lists targets.json and
   every delegated role with the version, length and digest of the file written for it, and nothing
   else; the timestamp describes the snapshot file *)
Theorem C10_meta_exact_delegated : forall (len_of dig_of : content -> N) (r : root) (e : edit) (dkeys : list N)
    (ch : list enode) (keys : list N) tg sn ts srv,
  ed_sign_tree len_of dig_of r e dkeys ch keys = Some (tg, sn, ts, srv) ->
  NoDup (map en_name (all_roles ch)) ->
  Forall (fun n => Forall (fun c => c < 256) (en_name n)) (all_roles ch) ->
  let doc := top_file_doc e dkeys ch (tg_sigs tg) in
  tg = top_loaded e dkeys ch (tg_sigs tg)
  /\ lookup name_targets (sn_meta sn)
     = Some {| m_version := e_tv e; m_length := Some (len_of (CTargets doc)); m_hash := Some (dig_of (CTargets doc)) |}
  /\ lookup (versioned (r_cs r) (e_tv e) name_targets) srv = Some (Served (mkfile len_of dig_of (CTargets doc)))
  /\ (forall n, In n (all_roles ch) ->
        lookup (json_of (en_name n)) (sn_meta sn)
        = Some {| m_version := en_version n; m_length := Some (len_of (CTargets (en_file_doc n)));
                  m_hash := Some (dig_of (CTargets (en_file_doc n))) |}
        /\ lookup (role_filename (r_cs r) (en_version n) (en_name n)) srv
           = Some (Served (mkfile len_of dig_of (CTargets (en_file_doc n)))))
  /\ (forall k m, lookup k (sn_meta sn) = Some m ->
        k = name_targets \/ exists n, In n (all_roles ch) /\ k = json_of (en_name n))
  /\ ts_meta ts = [(name_snapshot, {| m_version := sn_version sn; m_length := Some (len_of (CSnap sn));
                                     m_hash := Some (dig_of (CSnap sn)) |})]
  /\ lookup (versioned (r_cs r) (sn_version sn) name_snapshot) srv = Some (Served (mkfile len_of dig_of (CSnap sn)))
  /\ lookup name_timestamp srv = Some (Served (mkfile len_of dig_of (CTs ts)))
  /\ sn_version sn = e_sv e /\ ts_version ts = e_tsv e /\ sn_expires sn = e_sexp e /\ ts_expires ts = e_tsexp e.
Proof.
  intros len_of dig_of r e dkeys ch keys tg sn ts srv Hs _.
  exact (tree_meta_exact len_of dig_of r e dkeys ch keys tg sn ts srv Hs).
Qed.
Print Assumptions C10_meta_exact_delegated.

(* the tree attached to a loaded document, one level at a time: header, version, expiration, entries,
   key table and signatures of every delegated role as put in, its own delegated roles attached likewise *)
Theorem C10_loaded_tree_exact : forall ch : list enode,
  Forall2 (fun hc n => fst hc = en_hdr n
                       /\ exists t, snd hc = Some t
                          /\ tg_version t = en_version n /\ tg_expires t = en_expires n
                          /\ tg_entries t = en_entries n /\ tg_has_deleg t = true /\ tg_dkeys t = en_dkeys n
                          /\ tg_sigs t = sign_with (dh_keyids (en_hdr n)) (en_signers n)
                          /\ tg_roles t = loaded_roles (en_children n))
          (loaded_roles ch) ch.
Proof.
  intro ch. unfold loaded_roles. rewrite <- (map_id ch) at 2. apply Forall2_map_same. intros n _. cbn [fst snd].
  split; [reflexivity|]. exists (en_loaded n). destruct n; cbn. repeat split.
Qed.
Print Assumptions C10_loaded_tree_exact.

(* the editor signs a delegated role only if it verifies under its delegating role (F12) and bears no
   top-level role name (F18) *)
Theorem C10_delegated_sign_checked : forall (len_of dig_of : content -> N) r e dkeys ch keys res,
  ed_sign_tree len_of dig_of r e dkeys ch keys = Some res ->
  forall n, In n (all_roles ch) ->
    mem_bytes (en_name n) top_role_names = false
    /\ exists dk sibs, parent_in (en_name n) (top_node e dkeys ch) = Some (dk, sibs)
                       /\ deleg_verify fixed dk (hdrs_of sibs) (en_name n) (en_sigs n) = true.
Proof.
  intros len_of dig_of r e dkeys ch keys [[[tg sn] ts] srv] H.
  destruct (ed_sign_tree_inv _ _ _ _ _ _ _ _ _ _ _ H) as (_ & _ & _ & _ & (_ & Hchk & _) & _).
  exact (checked_all _ _ Hchk).
Qed.
Print Assumptions C10_delegated_sign_checked.

(* without pairwise distinct role names the round trip is false: two roles named B in different
   branches - the editor before the repair of F19 ([ed_sign_tree_gen ... false]: no check of the names)
   signs and writes, the client loads, and a target has disappeared *)
Theorem C10_distinct_names_refuted : forall cs,
  exists tg sn ts srv w rp,
    ed_sign_tree_gen x_len x_len false (x_root cs) x_edit [4; 7] [dup_A; dup_B1] [1; 2; 3; 20] = Some (tg, sn, ts, srv)
    /\ root_verify (x_root cs) 0 (r_sigs (x_root cs)) = true
    /\ NoDup [1; 2; 3; 20] /\ (forall k, In k [1; 2; 3; 20] -> memN k (r_keys (x_root cs)) = true)
    /\ Forall (fun n => Forall (fun c => c < 256) (en_name n)) (all_roles [dup_A; dup_B1])
    /\ (r_cs (x_root cs) = false ->
        ~ In (dec (r_version (x_root cs) + 1) ++ [46; 114; 111; 111; 116]) (map en_name (all_roles [dup_A; dup_B1])))
    /\ r_version (x_root cs) < update_limit fixed (r_version (x_root cs)) (c_max_root_updates x_cfg)
    /\ (tree_depth [dup_A; dup_B1] <= c_fuel x_cfg)%nat
    /\ x_len (CTs ts) <= c_max_timestamp_size x_cfg
    /\ (100 <= r_expires (x_root cs))%Z /\ (100 <= e_tsexp x_edit)%Z /\ (100 <= e_sexp x_edit)%Z /\ (100 <= e_texp x_edit)%Z
    /\ ~ NoDup (map en_name (all_roles [dup_A; dup_B1]))
    /\ run_cycle fixed (x_cyc cs srv) store0 = (Ok rp, w)
    /\ map (fun ni => tn_raw (fst ni)) (targets_iter tg) = [[116]; [97; 47; 98; 47; 121]]
    /\ map (fun ni => tn_raw (fst ni)) (targets_iter (rp_targets rp)) = [[116]].
Proof.
  (* what sign returns, and what the client makes of it, is never written out (the files are large terms, and every
     mention of them in the proof would be checked again): what is to be seen of it is computed as one observation,
     and the rest is proved about [tg], [sn], [ts], [srv] as variables *)
  intro cs.
  assert (Hobs : option_map (fun '(tg, sn, ts, srv) =>
                               (map (fun ni => tn_raw (fst ni)) (targets_iter tg),
                                match fst (run_cycle fixed (x_cyc cs srv) store0) with
                                | Ok rp => Some (map (fun ni => tn_raw (fst ni)) (targets_iter (rp_targets rp)))
                                | Err _ _ => None
                                end))
                            (ed_sign_tree_gen x_len x_len false (x_root cs) x_edit [4; 7] [dup_A; dup_B1] [1; 2; 3; 20])
                 = Some ([[116]; [97; 47; 98; 47; 121]], Some [[116]])) by (destruct cs; vm_compute; reflexivity).
  apply option_map_some in Hobs as ([[[tg sn] ts] srv] & E & [= Mtg Mrp]).
  destruct (run_cycle fixed (x_cyc cs srv) store0) as [[rp|] w] eqn:R; [|discriminate Mrp]. injection Mrp as Mrp.
  exists tg, sn, ts, srv, w, rp. split; [exact E|]. split; [reflexivity|].
  split; [apply (x_keys cs)|]. split; [apply (x_keys cs)|].
  split; [small_names|]. split; [intros _; cbn; intuition discriminate|].
  split; [reflexivity|]. split; [vm_compute; lia|].
  (* the timestamp fits, and nothing is expired at time 100 *)
  do 5 (split; [vm_compute; discriminate|]).
  split; [cbn; intro ND; inversion ND as [|? ? _ ND1]; inversion ND1 as [|? ? Hn _]; apply Hn; left; reflexivity|].
  auto.
Qed.
Print Assumptions C10_distinct_names_refuted.

(* since the repair of F19 the editor refuses such a tree, so that a successful sign implies the premise *)
Theorem C10_sign_implies_distinct_names : forall (len_of dig_of : content -> N) r e dkeys ch keys res,
  ed_sign_tree len_of dig_of r e dkeys ch keys = Some res -> NoDup (map en_name (all_roles ch)).
Proof.
  intros len_of dig_of r e dkeys ch keys [[[tg sn] ts] srv] H.
  destruct (ed_sign_tree_inv _ _ _ _ _ _ _ _ _ _ _ H) as (_ & _ & _ & _ & (Hnd & _) & _). exact Hnd.
Qed.
Print Assumptions C10_sign_implies_distinct_names.

Theorem C10_duplicate_names_refused : forall cs,
  ed_sign_tree x_len x_len (x_root cs) x_edit [4; 7] [dup_A; dup_B1] [1; 2; 3; 20] = None.
Proof. intro cs. vm_compute. reflexivity. Qed.
Print Assumptions C10_duplicate_names_refused.

(* without the condition on "<root version + 1>.root" it is false as well: file names without version
   prefix, root version 1, a delegated role named 2.root - the client takes that role's file for the
   next root and stops *)
Theorem C10_next_root_name_refuted :
  exists tg sn ts srv w,
    ed_sign_tree x_len x_len (x_root false) x_edit [7] [nr_role] [1; 2; 3; 20] = Some (tg, sn, ts, srv)
    /\ root_verify (x_root false) 0 (r_sigs (x_root false)) = true
    /\ NoDup [1; 2; 3; 20] /\ (forall k, In k [1; 2; 3; 20] -> memN k (r_keys (x_root false)) = true)
    /\ NoDup (map en_name (all_roles [nr_role]))
    /\ Forall (fun n => Forall (fun c => c < 256) (en_name n)) (all_roles [nr_role])
    /\ r_version (x_root false) < update_limit fixed (r_version (x_root false)) (c_max_root_updates x_cfg)
    /\ (tree_depth [nr_role] <= c_fuel x_cfg)%nat
    /\ x_len (CTs ts) <= c_max_timestamp_size x_cfg
    /\ (100 <= r_expires (x_root false))%Z /\ (100 <= e_tsexp x_edit)%Z /\ (100 <= e_sexp x_edit)%Z /\ (100 <= e_texp x_edit)%Z
    /\ In (dec (r_version (x_root false) + 1) ++ [46; 114; 111; 111; 116]) (map en_name (all_roles [nr_role]))
    /\ run_cycle fixed (x_cyc false srv) store0 = (Err E_Parse 0, w).
Proof.
  assert (Hobs : option_map (fun '(tg, sn, ts, srv) => fst (run_cycle fixed (x_cyc false srv) store0))
                            (ed_sign_tree x_len x_len (x_root false) x_edit [7] [nr_role] [1; 2; 3; 20])
                 = Some (Err E_Parse 0)) by (vm_compute; reflexivity).
  apply option_map_some in Hobs as ([[[tg sn] ts] srv] & E & Hrun).
  destruct (run_cycle fixed (x_cyc false srv) store0) as [res w] eqn:R. cbn [fst] in Hrun. subst res.
  exists tg, sn, ts, srv, w. split; [exact E|]. split; [reflexivity|].
  split; [apply (x_keys false)|]. split; [apply (x_keys false)|].
  split; [nodup_names|]. split; [small_names|]. split; [reflexivity|]. split; [vm_compute; lia|].
  (* the timestamp fits, and nothing is expired at time 100 *)
  do 5 (split; [vm_compute; discriminate|]).
  split; [vm_compute; auto|]. exact R.
Qed.
Print Assumptions C10_next_root_name_refuted.

(* non-vacuity: targets delegating to A and B, A delegating to C, every delegated role 2 of 3 keys,
   targets and snapshot 2 of 3; signed, written, loaded back; one signature less and the editor refuses *)
Example C10_delegated_example : forall cs,
  exists tg sn ts srv w,
    ed_sign_tree x_len x_len (x_root cs) x_edit [4; 5; 6; 7; 8; 9] [x_A; x_B [9; 8; 2]] [1; 2; 3; 20] = Some (tg, sn, ts, srv)
    /\ run_cycle fixed (x_cyc cs srv) store0 = (Ok {| rp_root := x_root cs; rp_ts := ts; rp_snap := sn; rp_targets := tg |}, w)
    /\ map (fun ni => tn_raw (fst ni)) (targets_iter tg) = [[116]; [97; 47; 120]; [97; 47; 99; 47; 121]; [98; 47; 122]]
    /\ map fst (sn_meta sn) = [name_targets; [65; 46; 106; 115; 111; 110]; [67; 46; 106; 115; 111; 110]; [66; 46; 106; 115; 111; 110]]
    /\ ed_sign_tree x_len x_len (x_root cs) x_edit [4; 5; 6; 7; 8; 9] [x_A; x_B [9; 2]] [1; 2; 3; 20] = None.
Proof.
  intro cs.
  assert (Hobs : option_map (fun '(tg, sn, ts, srv) => (map (fun ni => tn_raw (fst ni)) (targets_iter tg), map fst (sn_meta sn)))
                            (ed_sign_tree x_len x_len (x_root cs) x_edit [4; 5; 6; 7; 8; 9] [x_A; x_B [9; 8; 2]] [1; 2; 3; 20])
                 = Some ([[116]; [97; 47; 120]; [97; 47; 99; 47; 121]; [98; 47; 122]],
                         [name_targets; [65; 46; 106; 115; 111; 110]; [67; 46; 106; 115; 111; 110]; [66; 46; 106; 115; 111; 110]]))
    by (vm_compute; reflexivity).
  apply option_map_some in Hobs as ([[[tg sn] ts] srv] & E & [= Mtg Msn]).
  destruct (editor_client_roundtrip_tree _ _ _ _ _ _ _ x_cfg 100 _ _ _ _ E) as [w Hw].
  (* the root verifies under itself *)
  - reflexivity.
  (* the signing keys: distinct, and in the root's key table *)
  - apply (x_keys cs).
  - apply (x_keys cs).
  (* role names: of bytes, none is "<root version + 1>.root" *)
  - small_names.
  - intros _. cbn. intuition discriminate.
  (* limits: a root update allowed, fuel for the depth of the tree, the timestamp fits *)
  - reflexivity.
  - vm_compute. lia.
  - vm_compute. discriminate.
  (* nothing is expired at time 100 *)
  - vm_compute. discriminate.
  - vm_compute. discriminate.
  - vm_compute. discriminate.
  - vm_compute. discriminate.
  - exists tg, sn, ts, srv, w. do 4 (split; [assumption|]). vm_compute. reflexivity.
Qed.

(* Editing programs (Model/EdOps.v: the operations of RepositoryEditor and TargetsEditor as a state machine).
   Any program of editing operations - refused calls included, they change nothing - whose final sign
   succeeds with the top-level role under edit: the client loads exactly what sign built. The premises
   about role names are premises about the delegate_role calls of the program; pairwise distinctness
   is checked by sign itself. *)
Theorem C10_program_roundtrip : forall (len_of dig_of : content -> N) (r : root) (ops : list edop) (keys : list N)
    (cfg : config) (now : Z) tg sn ts srv ss,
  ed_at_sign (fst (ed_run r red_new ops)) keys = Some ss ->
  ed_program_sign len_of dig_of r ops keys = Some (tg, sn, ts, srv) ->
  root_verify r 0 (r_sigs r) = true ->
  (forall k, In k keys -> memN k (r_keys r) = true) ->
  Forall small (ops_names ops) ->
  (r_cs r = false -> ~ In (next_root_role r) (ops_names ops)) ->
  r_version r < update_limit fixed (r_version r) (c_max_root_updates cfg) ->
  (tree_depth (ss_children ss) <= c_fuel cfg)%nat ->
  len_of (CTs ts) <= c_max_timestamp_size cfg ->
  (now <= r_expires r)%Z -> (now <= e_tsexp (ss_edit ss))%Z -> (now <= e_sexp (ss_edit ss))%Z -> (now <= e_texp (ss_edit ss))%Z ->
  exists w,
    run_cycle fixed {| cy_cfg := cfg; cy_shipped := CRoot r; cy_srv := srv; cy_now := now; cy_fault := None |} store0
    = (Ok {| rp_root := r; rp_ts := ts; rp_snap := sn; rp_targets := tg |}, w).
Proof.
  intros len_of dig_of r ops keys cfg now tg sn ts srv ss Hss Hsign Hroot Hkeys Hsmall Hnext.
  unfold ed_program_sign in Hsign. rewrite Hss in Hsign.
  destruct (at_sign_inv _ _ _ Hss) as (te & Hte & _ & _ & _ & _ & Hch & Hk).
  (* the roles sign works on were created by the program: run_names *)
  assert (incl (names (all_roles (ss_children ss))) (ops_names ops)) as Hincl.
  { intros x Hx. apply (run_names r ops red_new). unfold st_names. rewrite (te_names_some _ _ Hte), <- Hch.
    apply in_app_iff. right. exact Hx. }
  apply (editor_client_roundtrip_tree len_of dig_of r (ss_edit ss) (ss_dkeys ss) (ss_children ss) (ss_keys ss) cfg now
                                      tg sn ts srv Hsign Hroot).
  - rewrite Hk. apply dedup_NoDup.
  - intros k Hk'. rewrite Hk in Hk'. apply Hkeys, dedup_In, Hk'.
  - apply Forall_forall. intros n Hn. rewrite Forall_forall in Hsmall. apply Hsmall, Hincl, in_names, Hn.
  - intros Hcs Hin. exact (Hnext Hcs (Hincl _ Hin)).
Qed.
Print Assumptions C10_program_roundtrip.

(* the two maps of a TargetsEditor (targets the role had, targets added since) behave as one map:
   add = insert, remove = delete, clear = empty; every other operation that stays on the role leaves
   the targets, the role's name, its key holder and the signed tree alone *)
Theorem C10_edit_refines_map : forall r st te o st',
  rd_te st = Some te -> te_ok te -> stays o = true -> ed_step r st o = Some st' ->
  exists te', rd_te st' = Some te' /\ te_ok te'
              /\ te_name te' = te_name te /\ te_holder te' = te_holder te
              /\ te_children te' = te_children te
              /\ rd_top st' = rd_top st
              /\ forall n, te_lookup te' n = spec_targets_step o (te_lookup te) n.
Proof.
  intros r st te o st' Hte Hok Hs Hstep.
  destruct (next_view r _ _ _ _ _ _ _ o (on_role_start st te _ Hte Hok (fun _ => eq_refl)) Hs) as [te' V].
  unfold ed_next in V. rewrite Hstep in V. exists te'.
  exact (conj (on_te V) (conj (on_ok V) (conj (on_name V) (conj (on_holder V) (conj (on_children V)
          (conj (on_top V) (on_lookup V))))))).
Qed.
Print Assumptions C10_edit_refines_map.

(* what the client finds in the top-level role after program [pre ++ seg] (seg: operations on the
   top-level role, which [pre] left under edit) is the abstract map after seg *)
Theorem C10_program_targets_seen : forall (len_of dig_of : content -> N) r pre seg keys te0 tg sn ts srv,
  rd_te (fst (ed_run r red_new pre)) = Some te0 ->
  forallb stays seg = true ->
  ed_program_sign len_of dig_of r (pre ++ seg) keys = Some (tg, sn, ts, srv) ->
  forall n, lookup_target n (tg_entries tg) = spec_targets seg (te_lookup te0) n.
Proof.
  intros len_of dig_of r pre seg keys te0 tg sn ts srv Hte Hs Hsign.
  exact (proj1 (program_view len_of dig_of r pre seg keys te0 (te_lookup te0) tg sn ts srv Hte (fun _ => eq_refl) Hs Hsign)).
Qed.
Print Assumptions C10_program_targets_seen.

(* the same for a program that is one such stretch from the start, where the map starts empty *)
Theorem C10_new_program_targets_seen : forall (len_of dig_of : content -> N) r seg keys tg sn ts srv,
  forallb stays seg = true ->
  ed_program_sign len_of dig_of r seg keys = Some (tg, sn, ts, srv) ->
  forall n, lookup_target n (tg_entries tg) = spec_targets seg (fun _ => None) n.
Proof.
  intros len_of dig_of r seg keys tg sn ts srv Hs Hsign.
  exact (proj1 (program_view len_of dig_of r [] seg keys ted_new_top (fun _ => None) tg sn ts srv eq_refl (fun _ => eq_refl) Hs Hsign)).
Qed.
Print Assumptions C10_new_program_targets_seen.

(* every role the editor holds at any point was created by a delegate_role call of the program *)
Theorem C10_roles_come_from_program : forall r ops st,
  incl (st_names (fst (ed_run r st ops))) (st_names st ++ ops_names ops).
Proof. intros r ops st. exact (run_names r ops st). Qed.
Print Assumptions C10_roles_come_from_program.

(* non-vacuity: a 27-operation program (additions, a removal, an update, three delegations, three roles
   edited and signed by their holders) is accepted call by call, signs, and is loaded back; with one
   signature less on role B the final sign refuses *)
Example C10_program_example : forall cs,
  exists tg sn ts srv w,
    ed_program_sign x_len x_len (x_root cs) (x_prog [9; 8; 2]) [1; 2; 3; 20] = Some (tg, sn, ts, srv)
    /\ run_cycle fixed (x_cyc cs srv) store0 = (Ok {| rp_root := x_root cs; rp_ts := ts; rp_snap := sn; rp_targets := tg |}, w)
    /\ map (fun ni => (tn_raw (fst ni), ti_len (snd ni))) (targets_iter tg) = [([116], 5); ([97; 47; 120], 1); ([98; 47; 122], 2)]
    /\ snd (ed_run (x_root cs) red_new (x_prog [9; 8; 2])) = repeat true 27
    /\ ed_program_sign x_len x_len (x_root cs) (x_prog [9; 2]) [1; 2; 3; 20] = None.
Proof.
  intro cs.
  assert (Htg : option_map (fun '(tg, sn, ts, srv) => map (fun ni => (tn_raw (fst ni), ti_len (snd ni))) (targets_iter tg))
                           (ed_program_sign x_len x_len (x_root cs) (x_prog [9; 8; 2]) [1; 2; 3; 20])
                = Some [([116], 5); ([97; 47; 120], 1); ([98; 47; 122], 2)]) by (vm_compute; reflexivity).
  apply option_map_some in Htg as ([[[tg sn] ts] srv] & E & Htg).
  assert (Hss : option_map (fun ss => (Nat.leb (tree_depth (ss_children ss)) (c_fuel x_cfg),
                                       e_tsexp (ss_edit ss), e_sexp (ss_edit ss), e_texp (ss_edit ss)))
                           (ed_at_sign (fst (ed_run (x_root cs) red_new (x_prog [9; 8; 2]))) [1; 2; 3; 20])
                = Some (true, 700%Z, 800%Z, 900%Z)) by (vm_compute; reflexivity).
  apply option_map_some in Hss as (ss & Ess & [= Hdepth Htsexp Hsexp Htexp]).
  destruct (C10_program_roundtrip x_len x_len (x_root cs) _ _ x_cfg 100 _ _ _ _ _ Ess E) as [w Hw].
  (* the root verifies under itself *)
  - reflexivity.
  (* the signing keys: in the root's key table *)
  - apply (x_keys cs).
  (* role names: of bytes, none is "<root version + 1>.root" *)
  - small_names.
  - intros _. vm_compute. intuition discriminate.
  (* limits: a root update allowed, fuel for the depth of the tree, the timestamp fits *)
  - reflexivity.
  - apply Nat.leb_le, Hdepth.
  - vm_compute. discriminate.
  (* nothing is expired at time 100 *)
  - discriminate.
  - rewrite Htsexp. discriminate.
  - rewrite Hsexp. discriminate.
  - rewrite Htexp. discriminate.
  - exists tg, sn, ts, srv, w. split; [exact E|]. split; [exact Hw|]. split; [exact Htg|]. split; vm_compute; reflexivity.
Qed.

(* signing the role under edit back into the tree (sign_targets_editor for a delegated role: the first role
   of that name in pre-order gets the new document, replace_role) gives that role the document under the
   header its delegating role has for it ... *)
Theorem C10_role_update_sets : forall d top name top',
  replace_role name d top = Some top' ->
  exists c, find_role_in name top = Some c /\ find_role_in name top' = Some (set_content c d).
Proof.
  intros d top name top' H. apply replace_role_inv in H as (_ & c & H). exists c. rewrite !find_role_in_find.
  destruct (replaced_find _ _ _ _ _ H) as (F1 & F2 & _). split; assumption.
Qed.
Print Assumptions C10_role_update_sets.

(* ... and changes nothing any other role says itself - header, version, expiration, targets, key table,
   signers, names of its delegated roles - (other = not that role, not below it before, not below it after) *)
Theorem C10_role_update_frame : forall d top name top' c m,
  replace_role name d top = Some top' ->
  find_role_in name top = Some c ->
  m <> name ->
  ~ In m (names (all_roles (en_children c))) ->
  ~ In m (names (all_roles (en_children d))) ->
  option_map shallow (find_role_in m top') = option_map shallow (find_role_in m top).
Proof.
  intros d top name top' c m H Hc. apply replace_role_inv in H as (_ & c0 & H).
  destruct (replaced_find _ _ _ _ _ H) as (F1 & _ & F3).
  rewrite !find_role_in_find in *. rewrite F1 in Hc. injection Hc as <-. apply F3.
Qed.
Print Assumptions C10_role_update_frame.

(* the cross-party flow inside the state machine (OpUpdate: the holder of a delegated role adds targets, sets
   version and expiration and signs elsewhere; the owner calls update_delegated_targets): the incoming metadata
   is taken only with a threshold of distinct authorised signatures under the delegating role and a version not
   lower; the role then holds the incoming document - the holder's additions over the targets it had - under the
   header its delegating role has for it, and no role is under edit. *)
Theorem C10_update_checked : forall r st name adds version expires keys st',
  ed_step r st (OpUpdate name adds version expires keys) = Some st' ->
  exists top cur dk sibs inc top',
    rd_top st = Some top /\ parent_in name top = Some (dk, sibs) /\ find_role_in name top = Some cur
    /\ incoming r top name adds version expires keys = Some inc
    /\ (exists h, find_hdr name (hdrs_of sibs) = Some h
                  /\ spec_accept dk (dh_keyids h) (dh_threshold h) (sign_with (dh_keyids (en_hdr cur)) (en_signers inc)) = true)
    /\ en_version cur <= version
    /\ rd_te st' = None /\ rd_top st' = Some top'
    /\ exists c, find_role_in name top' = Some c
                 /\ en_hdr c = en_hdr cur /\ en_version c = version /\ en_expires c = expires
                 /\ en_entries c = textend (en_entries cur) adds /\ en_dkeys c = en_dkeys cur /\ en_signers c = en_signers inc.
Proof.
  intros r st name adds version expires keys st'. cbn [ed_step].
  destruct (bytes_eqb name name_targets_role); [discriminate|]. destruct (rd_top st) as [top|] eqn:Htop; [|discriminate].
  destruct (incoming r top name adds version expires keys) as [inc|] eqn:I; [|discriminate]. intro H.
  apply update_delegated_inv in H as (top0 & dk & sibs & cur & ch' & top' & (Htop0 & P & F) & (V & Hv) & _ & R & Hte' & Htop').
  rewrite Htop in Htop0. injection Htop0 as <-.
  destruct (incoming_inv _ _ _ _ _ _ _ _ I) as (dk0 & sibs0 & cur0 & signers & _ & F0 & _ & Einc).
  rewrite F in F0. injection F0 as <-.
  exists top, cur, dk, sibs, inc, top'. do 4 (split; [first [reflexivity|assumption]|]).
  split; [apply DelegLoadP.deleg_verify_spec, V|]. split; [rewrite Einc in Hv; exact Hv|]. do 2 (split; [assumption|]).
  destruct (C10_role_update_sets _ _ _ _ R) as (c & Hc1 & Hc2). rewrite F in Hc1. injection Hc1 as <-.
  eexists. split; [exact Hc2|]. rewrite Einc. repeat split.
Qed.
Print Assumptions C10_update_checked.

(* non-vacuity: publish, holder of A adds a/new at version 5 with two of its three keys (threshold 2), owner
   takes it in and signs again, the client loads the new target; one key, or an older version: refused *)
Example C10_cross_party_example : forall cs,
  exists tg sn ts srv w,
    ed_program_sign x_len x_len (x_root cs) (x_cross [4; 6] 5) [1; 2; 3; 20] = Some (tg, sn, ts, srv)
    /\ run_cycle fixed (x_cyc cs srv) store0 = (Ok {| rp_root := x_root cs; rp_ts := ts; rp_snap := sn; rp_targets := tg |}, w)
    /\ map (fun ni => (tn_raw (fst ni), ti_len (snd ni))) (targets_iter tg)
       = [([116], 5); ([97; 47; 120], 1); ([97; 47; 110; 101; 119], 7); ([98; 47; 122], 2)]
    /\ nth 29 (snd (ed_run (x_root cs) red_new (x_cross [4; 6] 5))) false = true
    /\ nth 29 (snd (ed_run (x_root cs) red_new (x_cross [4] 5))) true = false
    /\ nth 29 (snd (ed_run (x_root cs) red_new (x_cross [4; 6] 2))) true = false.
Proof.
  intro cs.
  assert (Htg : option_map (fun '(tg, sn, ts, srv) => map (fun ni => (tn_raw (fst ni), ti_len (snd ni))) (targets_iter tg))
                           (ed_program_sign x_len x_len (x_root cs) (x_cross [4; 6] 5) [1; 2; 3; 20])
                = Some [([116], 5); ([97; 47; 120], 1); ([97; 47; 110; 101; 119], 7); ([98; 47; 122], 2)])
    by (vm_compute; reflexivity).
  apply option_map_some in Htg as ([[[tg sn] ts] srv] & E & Htg).
  assert (Hss : option_map (fun ss => (Nat.leb (tree_depth (ss_children ss)) (c_fuel x_cfg),
                                       e_tsexp (ss_edit ss), e_sexp (ss_edit ss), e_texp (ss_edit ss)))
                           (ed_at_sign (fst (ed_run (x_root cs) red_new (x_cross [4; 6] 5))) [1; 2; 3; 20])
                = Some (true, 700%Z, 800%Z, 900%Z)) by (vm_compute; reflexivity).
  apply option_map_some in Hss as (ss & Ess & [= Hdepth Htsexp Hsexp Htexp]).
  destruct (C10_program_roundtrip x_len x_len (x_root cs) _ _ x_cfg 100 _ _ _ _ _ Ess E) as [w Hw].
  (* the root verifies under itself *)
  - reflexivity.
  (* the signing keys: in the root's key table *)
  - apply (x_keys cs).
  (* role names: of bytes, none is "<root version + 1>.root" *)
  - small_names.
  - intros _. vm_compute. intuition discriminate.
  (* limits: a root update allowed, fuel for the depth of the tree, the timestamp fits *)
  - reflexivity.
  - apply Nat.leb_le, Hdepth.
  - vm_compute. discriminate.
  (* nothing is expired at time 100 *)
  - discriminate.
  - rewrite Htsexp. discriminate.
  - rewrite Hsexp. discriminate.
  - rewrite Htexp. discriminate.
  - exists tg, sn, ts, srv, w. split; [exact E|]. split; [exact Hw|]. split; [exact Htg|]. repeat split; vm_compute; reflexivity.
Qed.

(* editing a delegated role - change_delegated_targets R, operations on it, sign_targets_editor -: the tree then
   holds R, under the header its delegating role has for it, with exactly the abstract map after those
   operations (C10_role_update_frame: and every other role as it was; C10_program_roundtrip with
   C10_loaded_tree_exact: this is the tree a client loads after the final sign) *)
Theorem C10_role_edit_seen : forall r st top R st1 seg keys st3 old,
  R <> name_targets_role ->
  rd_top st = Some top -> find_role_in R top = Some old ->
  ed_step r st (OpChange R) = Some st1 ->
  forallb stays seg = true ->
  ed_step r (fst (ed_run r st1 seg)) (OpSignEditor keys) = Some st3 ->
  exists top3 c, rd_top st3 = Some top3 /\ rd_te st3 = None /\ find_role_in R top3 = Some c /\ en_hdr c = en_hdr old
                 /\ forall n, lookup_target n (en_entries c) = spec_targets seg (fun x => lookup_target x (en_entries old)) n.
Proof.
  intros r st top R st1 seg keys st3 old HR Htop Hold Hch Hs Hsign.
  apply bytes_eqb_neq in HR.
  (* change_delegated_targets: a fresh editor on the role as the tree has it *)
  cbn [ed_step] in Hch. destruct (rd_te st); [discriminate|]. rewrite Htop, HR, Hold in Hch.
  destruct (parent_in R top) as [[dk sibs]|]; [|discriminate]. injection Hch as <-.
  destruct (run_view r (with_te st (ted_from R (HDeleg dk sibs) old)) _ (fun x => lookup_target x (en_entries old)) seg
                     eq_refl I (fun _ => eq_refl) Hs) as [te' V].
  (* sign_targets_editor: the document built from it replaces the first role of that name *)
  cbn [ed_step] in Hsign. apply sign_editor_inv in Hsign. rewrite (on_te V), (on_name V) in Hsign.
  cbn [ted_from te_name] in Hsign. rewrite HR, (on_top V) in Hsign.
  destruct Hsign as (doc & top3 & B & Hte3 & Htop3 & top0 & Htop0 & Rp).
  cbn [with_te rd_top] in Htop0. rewrite Htop in Htop0. injection Htop0 as <-.
  destruct (C10_role_update_sets _ _ _ _ Rp) as (c & Hc1 & Hc2). rewrite Hold in Hc1. injection Hc1 as <-.
  exists top3, (set_content old doc). do 4 (split; [first [assumption|reflexivity]|]).
  intro n. cbn [set_content en_entries]. rewrite (proj1 (ted_build_doc _ _ _ _ B)). apply (on_lookup V).
Qed.
Print Assumptions C10_role_edit_seen.

(* versions and expirations of the three roles as the client sees them are those set last (the targets ones on the
   top-level role since it came under edit, the snapshot and timestamp ones since the editor was created) *)
Theorem C10_program_settings_seen : forall (len_of dig_of : content -> N) r pre seg keys te0 tg sn ts srv,
  rd_te (fst (ed_run r red_new pre)) = Some te0 ->
  forallb stays seg = true ->
  ed_program_sign len_of dig_of r (pre ++ seg) keys = Some (tg, sn, ts, srv) ->
  fold_left (fun g o => settings_step o g) seg (settings_of (fst (ed_run r red_new pre)) te0)
  = {| g_tv := Some (tg_version tg); g_texp := Some (tg_expires tg); g_sv := Some (sn_version sn); g_sexp := Some (sn_expires sn);
       g_tsv := Some (ts_version ts); g_tsexp := Some (ts_expires ts) |}.
Proof.
  intros len_of dig_of r pre seg keys te0 tg sn ts srv Hte Hs Hsign.
  exact (proj2 (program_view len_of dig_of r pre seg keys te0 (te_lookup te0) tg sn ts srv Hte (fun _ => eq_refl) Hs Hsign)).
Qed.
Print Assumptions C10_program_settings_seen.

(* Publication of target files (editor/signed.rs copy_target / link_target: Path::join of the file name on the
   output directory) against the client's download from a local repository (cache.rs fetch_target: Url::join of the
   same file name on the targets base URL; transport.rs FilesystemTransport opens the URL path as it stands;
   Model/Url.v). For every file name that is plain - every '/'-separated component non-empty, free of characters of
   the URL path percent-encode set and of the backslash, no dot segment in any spelling, no drive letter, the whole
   no URL of its own - the file that is opened is the file that was put, whatever else the directory holds. The
   complement of [url_plain] is the class url_encoded_target_name of known_findings.txt;
   C10_url_known_class_witnesses shows what happens there (the file is not found; encoded dots leave the directory;
   '?' cuts the name; a colon makes the name a URL). *)

Theorem C10_published_target_found : forall files base file v,
  base <> [] -> forallb (fun c => negb (is_empty c)) base = true -> url_plain file = true ->
  url_join base file = UPath (put_comps base file) false
  /\ fs_fetch (fs_put (put_comps base file) v files) base file = FsFound v.
Proof.
  intros files base file v Hne Hb Hp. split; [exact (url_join_plain base file Hne Hb Hp)|].
  rewrite (fs_fetch_plain _ base file Hne Hb Hp), fs_get_put_same. reflexivity.
Qed.
Print Assumptions C10_published_target_found.

Theorem C10_published_target_undisturbed : forall files base file p w,
  base <> [] -> forallb (fun c => negb (is_empty c)) base = true -> url_plain file = true ->
  paths_eqb (put_comps base file) p = false ->
  fs_fetch (fs_put p w files) base file = fs_fetch files base file.
Proof.
  intros files base file p w Hne Hb Hp Hq.
  rewrite !(fs_fetch_plain _ base file Hne Hb Hp), (fs_get_put_other _ _ _ _ Hq). reflexivity.
Qed.
Print Assumptions C10_published_target_undisturbed.

Theorem C10_url_known_class_witnesses :
  url_plain [97; 32; 98] = false
  /\ fs_fetch (fs_put (put_comps [[100]] [97; 32; 98]) [1; 2; 3] []) [[100]] [97; 32; 98] = FsNotFound
  /\ url_join [[100]; [101]] [37; 50; 101; 37; 50; 101; 47; 120] = UPath [[100]; [120]] false
  /\ url_join [[100]] [97; 63; 98] = UPath [[100]; [97]] false
  /\ url_join [[100]] [97; 58; 98] = UScheme
  /\ url_plain [100; 105; 114; 47; 102; 46; 116; 120; 116] = true.
Proof.
  split; [reflexivity|].
  exact (conj known_class_not_found (conj encoded_dots_leave_the_directory (conj question_mark_cuts
          (conj colon_makes_a_url plain_example)))).
Qed.
Print Assumptions C10_url_known_class_witnesses.

(* Target names written with the unreserved characters (letters, digits, '_', '-', '.', '~') and '/': whatever
   TargetName::new makes of such a relative name - '.' and '..' components resolved, repeated slashes dropped - is a
   plain file name, alone and behind the hex digest of a consistent-snapshot repository. For these names nothing is in
   the known class: C10_published_target_found and C19_cached_target_served apply. *)
Theorem C10_safe_names_are_plain : forall name r,
  forallb (fun c => unreserved c || (c =? 47)) name = true ->
  match name with c :: _ => c =? 47 | [] => false end = false ->
  clean_name name = inr r ->
  url_plain r = true
  /\ forall h, h <> [] -> forallb is_hexdigit h = true -> url_plain (h ++ 46 :: r) = true.
Proof. exact safe_name_plain. Qed.
Print Assumptions C10_safe_names_are_plain.

(* Two different plain file names never share a file - neither where publication puts them nor where a local client
   looks for them: one target's file is never written over, or served as, another's. *)
Theorem C10_plain_names_never_share_a_file : forall base f1 f2,
  base <> [] -> forallb (fun c => negb (is_empty c)) base = true -> url_plain f1 = true -> url_plain f2 = true ->
  (put_comps base f1 = put_comps base f2 \/ url_join base f1 = url_join base f2) -> f1 = f2.
Proof. exact plain_names_apart. Qed.
Print Assumptions C10_plain_names_never_share_a_file.
