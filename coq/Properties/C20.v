(* C20 - `tuftool root` subcommands keep root.json well-formed, without stale signatures.
   The lemmas are in Proofs/RootCmdP.v. Histories are arbitrary lists of
   commands (no length bound) run by Model/RootCmd.v's run_all from "no file" (or from any file
   satisfying the invariant [good]); [kid] - the function from a key to its identifier - is
   arbitrary; [fx] selects the code variant (rc_fixed: after the repair of F13, rc_original: before). *)
From ToughV Require Export Model.Base Model.Sig Model.RootCmd.
From ToughV Require Import Proofs.RootCmdP.

(* After any history the file, if there is one, is accepted by load_file (identifiers, version,
   thresholds, role names), every key-table identifier is the identifier of its key, and every
   signature present is a signature over the current content. Both code variants. *)
Theorem C20_inv : forall kid fx cmds f, run_all kid fx cmds None = Some f ->
  parse_ok kid (rf_body f) = true
  /\ (forall i k, In (i, k) (rb_keys (rf_body f)) -> i = kid k)
  /\ (forall g, In g (rf_sigs f) -> sg_body g = rf_body f).
Proof.
  intros kid fx cmds f H. pose proof (run_all_good kid fx cmds None I) as Hg. rewrite H in Hg.
  destruct Hg as [Hb Hs]. split; [exact (body_good_parse_ok _ _ Hb)|]. split.
  - intros i k Hin. destruct Hb as (Hk & _). unfold keys_ok in Hk. rewrite Forall_forall in Hk.
    exact (Hk _ Hin).
  - intros g Hin. rewrite Forall_forall in Hs. apply (Hs g Hin).
Qed.
Print Assumptions C20_inv.

(* the same as an invariant, from any starting file that satisfies it ([good] also says that every
   role lists only key ids of the key table, none twice, and that every signature is labelled with
   the identifier of the key that made it) *)
Theorem C20_inv_from_good : forall kid fx cmds st, good kid st -> good kid (run_all kid fx cmds st).
Proof. exact run_all_good. Qed.
Print Assumptions C20_inv_from_good.

(* every successful subcommand other than sign leaves a file without signatures *)
Theorem C20_content_change_clears_signatures : forall kid fx c st st',
  step kid fx c st = ROk st' -> is_sign c = false -> exists f, st' = Some f /\ rf_sigs f = [].
Proof.
  intros kid fx c st st' H Hs.
  apply step_ok_inv in H as [(v & now & _ & ->)|[(f & b' & _ & _ & ->)|(keys & cross & ignore & -> & _)]].
  - eexists. split; reflexivity.
  - eexists. split; reflexivity.
  - discriminate.
Qed.
Print Assumptions C20_content_change_clears_signatures.

(* sign does not change the content *)
Theorem C20_sign_keeps_content : forall kid fx keys cross ignore st st',
  step kid fx (CSign keys cross ignore) st = ROk st' ->
  exists f f', st = Some f /\ st' = Some f' /\ rf_body f' = rf_body f.
Proof.
  intros kid fx keys cross ignore st st' H. cbn [step] in H.
  apply sign_inv in H as (f & lr & ks & lrk & rk & H1 & _ & _ & _ & _ & -> & _).
  apply load_Some in H1 as [-> _]. eexists. eexists. repeat split; reflexivity.
Qed.
Print Assumptions C20_sign_keeps_content.

(* a sign that succeeded without --ignore-threshold and without --cross-sign leaves a file that
   Root::verify_role accepts under its own root role (repaired variant; identifiers of different
   keys are different) *)
Theorem C20_sign_selfverifies : forall kid, (forall a b, kid a = kid b -> a = b) ->
  forall cmds keys f',
  step kid rc_fixed (CSign keys None false) (run_all kid rc_fixed cmds None) = ROk (Some f') ->
  root_verify kid f' = true.
Proof.
  intros kid Hinj cmds keys f'. apply sign_selfverifies_from_good; [exact Hinj|]. apply run_all_good. exact I.
Qed.
Print Assumptions C20_sign_selfverifies.

Theorem C20_sign_selfverifies_from_good : forall kid, (forall a b, kid a = kid b -> a = b) ->
  forall keys st f', good kid st ->
  step kid rc_fixed (CSign keys None false) st = ROk (Some f') -> root_verify kid f' = true.
Proof. exact sign_selfverifies_from_good. Qed.
Print Assumptions C20_sign_selfverifies_from_good.

(* before the repair of F13 the statement was false (identifiers = keys) *)
Theorem C20_sign_selfverifies_refuted : exists cmds keys f',
  step (fun k => k) rc_original (CSign keys None false) (run_all (fun k => k) rc_original cmds None)
  = ROk (Some f')
  /\ root_verify (fun k => k) f' = false.
Proof.
  destruct (last_status_Some _ _ _ _ f13_original) as (f & H). exists f13_history, [Some 1], f. exact H.
Qed.
Print Assumptions C20_sign_selfverifies_refuted.

(* a subcommand that ends in an error leaves the file as it was (in the model an error carries no
   file at all; that the implementation agrees is what the correspondence check observes) ... *)
Theorem C20_error_leaves_file : forall kid fx c st, step kid fx c st = RErr -> exec kid fx c st = st.
Proof. intros kid fx c st H. unfold exec. rewrite H. reflexivity. Qed.
Print Assumptions C20_error_leaves_file.

(* ... so the failed commands of a history can be erased from it *)
Theorem C20_failed_commands_erasable : forall kid fx cmds st,
  run_all kid fx cmds st = run_all kid fx (succeeded kid fx cmds st) st.
Proof.
  intros kid fx cmds. unfold run_all. induction cmds as [|c cs IH]; intro st; cbn [fold_left succeeded]; [reflexivity|].
  destruct (step kid fx c st) as [s|] eqn:E.
  - cbn [fold_left]. rewrite (exec_ok _ _ _ _ _ E). apply IH.
  - rewrite (C20_error_leaves_file _ _ _ _ E). apply IH.
Qed.
Print Assumptions C20_failed_commands_erasable.

(* non-vacuity: the F13 history (threshold 2, cross-signature by a foreign key, then one own key) is
   refused by the repaired variant, and signing with both own keys succeeds and verifies *)
Example C20_example :
  last_status rc_original f13_history (CSign [Some 1] None false) = Some false
  /\ last_status rc_fixed f13_history (CSign [Some 1] None false) = None
  /\ last_status rc_fixed f13_history (CSign [Some 1; Some 2] None false) = Some true.
Proof. split; [exact f13_original|]. split; vm_compute; reflexivity. Qed.
