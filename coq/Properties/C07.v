(* C07 - a delegated role can only provide targets inside its delegated paths.
   The lemmas are in Proofs/DelegP.v. *)
From ToughV Require Export Model.Base Model.Sig Model.Glob Model.Deleg.
From ToughV Require Export Proofs.DelegP.

(* the matcher is the usual wildcard matching ('*' any string, '?' any one character - both may
   match '/', as globset's default options have it) *)
Theorem C07_glob_spec : forall p s, glob p s = true <-> gmatch p s.
Proof.
  intros p s. unfold glob. split; [apply glob_match_sound|].
  intro H. apply glob_match_complete; [exact H|apply Nat.lt_succ_diag_r].
Qed.
Print Assumptions C07_glob_spec.

(* the entry used is the first one in pre-order among the authorised entries (own entries before
   delegates, delegates in listed order, only through delegations whose paths match the name) *)
Theorem C07_find_is_first_authorised : forall n t, find_target n t = hd_error (auth_entries n t).
Proof.
  intros n t. induction t as [v e en h k roles s IH] using targets_ind2.
  rewrite find_target_eq, auth_entries_eq.
  destruct (lookup_target n en) as [i|]; [reflexivity|]. cbn [app].
  destruct h; [exact (find_roles_first n roles IH)|reflexivity].
Qed.
Print Assumptions C07_find_is_first_authorised.

(* hence a target is only ever served from an entry reached through a chain of matching delegations *)
Theorem C07_chain : forall n t i, find_target n t = Some i -> reachable n t i.
Proof.
  intros n t i. rewrite C07_find_is_first_authorised. intro H. apply auth_entries_reachable.
  destruct (auth_entries n t) as [|j l]; [discriminate|]. injection H as ->. left. reflexivity.
Qed.
Print Assumptions C07_chain.

(* a repository that passes validation (as every loaded repository has) lists no name that lacks an
   authorised entry *)
Theorem C07_validate : forall t, validate t = true ->
  forall n i, In (n, i) (targets_iter t) -> exists j, find_target n t = Some j /\ reachable n t j.
Proof.
  unfold validate. intros t H n i Hin. rewrite forallb_forall in H. specialize (H (n, i) Hin). cbn [fst] in H.
  destruct (find_target n t) as [j|] eqn:E; [|discriminate]. exists j. split; [reflexivity|].
  apply C07_chain, E.
Qed.
Print Assumptions C07_validate.

Example C07_example :
  glob [42; 46; 116; 103; 122] [116; 47; 102; 46; 116; 103; 122] = true
  /\ glob [97; 63; 99] [97; 47; 99] = true
  /\ glob [97; 63; 99] [97; 99] = false.
Proof. exact glob_examples. Qed.
